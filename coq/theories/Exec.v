(** Exec: the executable instance of the model over [Z] with a small closure DSL that exists
    twice (here and in the Rust harness).  [exec] runs a whole case -- build the computation,
    resolve the settings, run the runner machine under a schedule (or take the sequential
    branch), compute the terminal's value -- and returns everything the harness observes. *)
From OrxPar Require Import Base Settings Spec Pipeline Machine MachineIter Kernels Program.
Set Implicit Arguments.
Local Open Scope Z_scope.

(** ** closure DSL *)
Inductive mapf := Affine (a b : Z) | MapMod (m : Z).
Inductive filf := KeepMod (m r : Z) | KeepLt (t : Z) | KeepGe (t : Z) | KeepAll.
Inductive flatf := Rep (k : nat) (d : Z) | RepMod (m : Z).
Inductive fmf := SomeMod (m r a b : Z).

Definition wrap64 (z : Z) : Z := ((z + 9223372036854775808) mod 18446744073709551616) - 9223372036854775808.

Definition run_map (f : mapf) (x : Z) : Z :=
  match f with Affine a b => a * x + b | MapMod m => x mod m end.
Definition run_fil (f : filf) (x : Z) : bool :=
  match f with KeepMod m r => (x mod m) =? r | KeepLt t => x <? t | KeepGe t => x >=? t | KeepAll => true end.
Fixpoint rep_from (x d : Z) (k : nat) : list Z :=
  match k with O => [] | S k' => x :: rep_from (x + d) d k' end.
Definition run_flat (f : flatf) (x : Z) : list Z :=
  match f with
  | Rep k d => rep_from x d k
  | RepMod m => rep_from (x * 2) 1 (Z.to_nat (x mod m))
  end.
Definition run_fm (f : fmf) (x : Z) : option Z :=
  match f with SomeMod m r a b => if (x mod m) =? r then Some (a * x + b) else None end.

Inductive dop :=
| DMap (f : mapf) | DFilter (f : filf) | DFlatMap (f : flatf) | DFilterMap (f : fmf)
| DNumThreads (n : N) | DChunkSize (n : N) | DChunkMin (n : N).

(** closure identities are the positions of the operations in the chain *)
Fixpoint to_ops (i : nat) (l : list dop) : list (op Z) :=
  match l with
  | [] => []
  | DMap f :: r => OStage (SMap i (run_map f)) :: to_ops (S i) r
  | DFilter f :: r => OStage (SFilter i (run_fil f)) :: to_ops (S i) r
  | DFlatMap f :: r => OStage (SFlatMap i (run_flat f)) :: to_ops (S i) r
  | DFilterMap f :: r => OStage (SFilterMap i (run_fm f)) :: to_ops (S i) r
  | DNumThreads n :: r => ONumThreads n :: to_ops (S i) r
  | DChunkSize n :: r => OChunkSize n :: to_ops (S i) r
  | DChunkMin n :: r => OChunkMin n :: to_ops (S i) r
  end.

(** reduce operators *)
Inductive redop := RAdd | RXor | RMinOp | RMaxOp | RSub | RPoly.
Definition run_red (o : redop) (a b : Z) : Z :=
  match o with
  | RAdd => wrap64 (a + b) | RXor => Z.lxor a b | RMinOp => Z.min a b | RMaxOp => Z.max a b
  | RSub => wrap64 (a - b) | RPoly => wrap64 (a * 31 + b)
  end.

(** ** terminals *)
Inductive target := TVec | TSplit | TFixed.

Inductive terminal :=
| TCollectVec | TCollectSplit | TCollectX
| TCollectInto (t : target) (old : list Z)
| TCount | TForEach
| TReduceT (o : redop)
| TSum | TMinT | TMaxT | TFold (id : Z) (o : redop)
| TMinBy | TMaxBy | TMinKey (m : Z) | TMaxKey (m : Z)
| TFind (q : filf) | TFindIx (q : filf) | TFirst | TFirstIx | TAny (q : filf) | TAll (q : filf).

Inductive result :=
| RList (l : list Z)                (* ordered collection *)
| RBag (l : list Z)                 (* collect_x: order unspecified *)
| RCount (n : nat)
| ROpt (o : option Z)
| ROptIx (o : option (nat * Z))
| RBool (b : bool)
| RUnit
| RPanic.

(** what a run shows *)
Record obs := mkObs {
  o_result : result;
  o_params : Params;
  o_kind : kind;                       (* type of the computation the terminal is called on *)
  o_clog : list (nat * Z);             (* construction-time calls, in order *)
  o_consumed : nat;                    (* source elements consumed at construction time *)
  o_rlog : list (list (nat * Z));      (* run-time calls per thread (0 = caller, then workers) *)
  o_spawned : nat;
  o_chunks : list nat;                 (* chunk size handed to each worker *)
  o_pulls : list (list (nat * nat));   (* successful pulls (begin, length) per worker *)
  o_sequential : bool;
  o_seen : list (list nat);            (* positions processed per worker, in order *)
  o_complete : bool;                   (* the schedule ran the computation to completion *)
  o_runner : option Runner             (* the terminal's run: [Runner::new] under the parameters last set *)
}.

Record case := mkCase {
  c_known : bool;                      (* source reports its length *)
  c_input : list Z;
  c_ops : list dop;
  c_term : terminal;
  c_avail : N;                         (* available_parallelism *)
  c_sched : list nat;                  (* schedule prefix; completed round-robin *)
  c_fuel : nat;                        (* round-robin rounds after the prefix *)
  c_panic : option (nat * Z);          (* the closure with this identity panics on this argument *)
  c_macro : bool;                      (* the schedule is a macro-schedule (deterministic scheduler of the
                                          harness): each pick runs a thread up to its next yield point *)
  c_iter : bool;                       (* the source is a by-value iterator: ticket / handle protocol *)
  c_pre : nat                          (* elements taken from the concurrent iterator before into_par():
                                          the computation sees the rest; reported positions are those of
                                          the original source *)
}.

Definition task_of (t : terminal) : ParTask :=
  match t with
  | TFind _ | TFindIx _ | TFirst | TFirstIx | TAny _ | TAll _ => TEarlyReturn
  | TReduceT _ | TSum | TMinT | TMaxT | TFold _ _ | TMinBy | TMaxBy | TMinKey _ | TMaxKey _ => TReduce
  | _ => TCollect
  end.

(** fold / sum / min / max / *_by(_key) are [reduce] with a fixed operator (src/par_iter.rs);
    [min_by]: Less | Equal => x;  [max_by]: Greater | Equal => x *)
Definition red_family (t : terminal) : option (Z -> Z -> Z) :=
  match t with
  | TReduceT o => Some (run_red o)
  | TSum => Some (fun x y => wrap64 (x + y))
  | TMinT => Some Z.min
  | TMaxT => Some Z.max
  | TFold _ o => Some (run_red o)
  | TMinBy => Some (fun x y => if x <=? y then x else y)
  | TMaxBy => Some (fun x y => if y <=? x then x else y)
  | TMinKey m => Some (fun x y => if (x mod m) <=? (y mod m) then x else y)
  | TMaxKey m => Some (fun x y => if (y mod m) <=? (x mod m) then x else y)
  | _ => None
  end.
(** what the wrapper does with the reduced option *)
Definition red_wrap (t : terminal) (o : option Z) : result :=
  match t with
  | TSum => ROpt (Some (match o with Some v => v | None => 0 end))
  | TFold id _ => ROpt (Some (match o with Some v => v | None => id end))
  | _ => ROpt o
  end.

(** the terminal's own predicate, as a logged filter with the identity [pid] *)
Definition neg_fil (q : filf) (x : Z) : bool := negb (run_fil q x).

Definition term_par (p : par Z) (t : terminal) (pid : nat) : par Z :=
  match t with
  | TFind q | TFindIx q | TAny q => with_predicate p (ufil pid (run_fil q))
  | TAll q => with_predicate p (ufil pid (neg_fil q))
  | TForEach => p
  | _ => p
  end.

Definition is_find (t : terminal) : bool :=
  match t with TFind _ | TFindIx _ | TFirst | TFirstIx | TAny _ | TAll _ => true | _ => false end.

(** ParTask of the kernel that actually runs: count kernels of map/flatmap use Collect,
    filtermap count uses Reduce (src/core/*_cnt.rs) *)
Definition kernel_task (k : kind) (t : terminal) : ParTask :=
  match t with
  | TCount | TForEach =>
      match k with KFilterMap | KFilterMapFilter => TReduce | _ => TCollect end
  | _ => task_of t
  end.

Definition finish (t : terminal) (pe : nat -> list (event Z)) (n : nat) (k : kind) (adv : nat) (wl : list worker)
  : result :=
  match t with
  | TCollectVec | TCollectSplit =>
      match k with
      | KMap => match res_map_col_adv pe adv [] n wl with Some l => RList l | None => RPanic end
      | _ => RList (res_col pe [] wl)
      end
  | TCollectInto _ old =>
      match k with
      | KMap => match res_map_col_adv pe adv old n wl with Some l => RList l | None => RPanic end
      | _ => RList (res_col pe old wl)
      end
  | TCollectX => RBag (res_colx pe wl)
  | TCount => RCount (res_cnt pe wl)
  | TForEach => match res_cnt pe wl with _ => RUnit end
  | TReduceT _ | TSum | TMinT | TMaxT | TFold _ _ | TMinBy | TMaxBy | TMinKey _ | TMaxKey _ =>
      match red_family t with
      | Some f => red_wrap t (res_red pe f wl)
      | None => RPanic
      end
  | TFind _ | TFirst => ROpt (option_map snd (res_find pe wl))
  | TFindIx _ | TFirstIx => ROptIx (res_find pe wl)
  | TAny _ => RBool (match res_find pe wl with Some _ => true | None => false end)
  | TAll _ => RBool (match res_find pe wl with Some _ => false | None => true end)
  end.

(** the sequential branch ([num_threads == Max(1)]): the std chain over the composed closures *)
Definition finish_seq (t : terminal) (tr : list (event Z)) (src : list Z) (p : par Z) : result * list (nat * Z) :=
  match t with
  | TCollectVec | TCollectSplit => (RList (yields tr), calls tr)
  | TCollectInto _ old => (RList (old ++ yields tr), calls tr)
  | TCollectX => (RBag (yields tr), calls tr)
  | TCount => (RCount (length (yields tr)), calls tr)
  | TForEach => (RUnit, calls tr)
  | TReduceT _ | TSum | TMinT | TMaxT | TFold _ _ | TMinBy | TMaxBy | TMinKey _ | TMaxKey _ =>
      (match red_family t with
       | Some f => red_wrap t (reduce_list f (yields tr))
       | None => RPanic
       end, calls tr)
  | _ =>
      (* find: positions in order, stop at the first yield *)
      let fix go (i : nat) (l : list Z) : list (nat * Z) * option (nat * Z) :=
        match l with
        | [] => ([], None)
        | x :: r =>
            let '(pre, o) := upto_yield (trace p x) in
            match o with
            | Some v => (calls pre, Some (i, v))
            | None => let '(lg, res) := go (S i) r in (calls pre ++ lg, res)
            end
        end in
      let '(lg, res) := go 0%nat src in
      (match t with
       | TFind _ | TFirst => ROpt (option_map snd res)
       | TFindIx _ | TFirstIx => ROptIx res
       | TAny _ => RBool (match res with Some _ => true | None => false end)
       | _ => RBool (match res with Some _ => false | None => true end)
       end, lg)
  end.

(** a terminal on [ParEmpty]'s collect family never runs the runner *)
Definition empty_collect (k : kind) (t : terminal) : bool :=
  match k, t with
  | KEmpty, (TCollectVec | TCollectSplit | TCollectX | TCollectInto _ _) => true
  | _, _ => false
  end.

Fixpoint complete (len : nat) (known : bool) (stop panics : nat -> bool) (r : Runner) (rounds : nat) (s : sys) : sys :=
  match rounds with
  | O => s
  | S n =>
      if all_doneb s then s
      else complete len known stop panics r n
             (run len known stop panics (m_dospawn r) (m_nextc r) s (seq 0 (S (length (ws s)))))
  end.

(** a schedule of steps [mstep], each a run of [step] under its [picks], is the run of [step]
    under the concatenated picks *)
Section Expand.
Variables (S T U : Type) (step : S -> U -> S) (mstep : S -> T -> S) (picks : S -> T -> list U).
Hypothesis mstep_is_run : forall s t, mstep s t = fold_left step (picks s t) s.

Fixpoint expand_of (s : S) (sched : list T) : list U :=
  match sched with
  | [] => []
  | t :: rest => picks s t ++ expand_of (mstep s t) rest
  end.

Lemma fold_expand sched : forall s, fold_left mstep sched s = fold_left step (expand_of s sched) s.
Proof.
  induction sched as [|t rest IH]; intros s; cbn [fold_left expand_of]; [reflexivity|].
  now rewrite fold_left_app, <- mstep_is_run.
Qed.
End Expand.

(** *** macro-steps: what one pick of the harness's deterministic scheduler lets a thread do.
    A worker yields right before evaluating an element (and when it is finished); the spawner
    yields right before every [has_more] read.  Each macro-step is a few micro-steps of the same
    thread, so every macro-schedule is a micro-schedule and the theorems apply to it. *)
Definition is_yield (w : worker) : bool :=
  match ph w with Holding _ (S _) | Done | Dead => true | _ => false end.

Local Open Scope nat_scope.
Section Macro.
Variables (len : nat) (known : bool) (stop panics : nat -> bool) (r : Runner).
Notation mstep := (step len known stop panics (m_dospawn r) (m_nextc r)).

Fixpoint wmacro (fuel : nat) (s : sys) (i : nat) : sys :=
  match fuel with
  | O => s
  | S f =>
      let s' := mstep s (S i) in
      match nth_error (ws s') i with
      | Some w => if is_yield w then s' else wmacro f s' i
      | None => s'
      end
  end.

Definition smacro (s : sys) : sys :=
  let s1 := mstep s 0 in
  match sph s1 with SpFinal => mstep s1 0 | _ => s1 end.

Definition macro_step (s : sys) (t : nat) : sys :=
  match t with 0 => smacro s | S i => wmacro 4 s i end.

Definition macro_run (s : sys) (sched : list nat) : sys := fold_left macro_step sched s.

(** the micro-schedule a macro-schedule stands for *)
Fixpoint wmacro_picks (fuel : nat) (s : sys) (i : nat) : list nat :=
  match fuel with
  | O => []
  | S f =>
      let s' := mstep s (S i) in
      S i :: match nth_error (ws s') i with
             | Some w => if is_yield w then [] else wmacro_picks f s' i
             | None => []
             end
  end.
Definition macro_picks (s : sys) (t : nat) : list nat :=
  match t with
  | 0 => let s1 := mstep s 0 in match sph s1 with SpFinal => [0; 0] | _ => [0] end
  | S i => wmacro_picks 4 s i
  end.
(** [expand_of macro_step macro_picks], written out (convertible: [macro_run_is_run]) *)
Fixpoint expand (s : sys) (sched : list nat) : list nat :=
  match sched with
  | [] => []
  | t :: rest => macro_picks s t ++ expand (macro_step s t) rest
  end.

Lemma wmacro_is_run fuel s i :
  wmacro fuel s i = run len known stop panics (m_dospawn r) (m_nextc r) s (wmacro_picks fuel s i).
Proof.
  revert s; induction fuel as [|f IH]; intros s; [reflexivity|].
  cbn [wmacro wmacro_picks].
  destruct (nth_error (ws (mstep s (S i))) i) as [w|]; [|reflexivity].
  destruct (is_yield w); [reflexivity|]. apply IH.
Qed.

Lemma macro_step_is_run s t :
  macro_step s t = run len known stop panics (m_dospawn r) (m_nextc r) s (macro_picks s t).
Proof.
  destruct t as [|i]; cbn [macro_step macro_picks].
  - unfold smacro. destruct (sph (mstep s 0)); reflexivity.
  - apply wmacro_is_run.
Qed.

(** every macro-schedule is a micro-schedule *)
Theorem macro_run_is_run s sched :
  macro_run s sched = run len known stop panics (m_dospawn r) (m_nextc r) s (expand s sched).
Proof. exact (fold_expand _ _ _ macro_step_is_run sched s). Qed.

End Macro.

(** *** the same over a by-value iterator source *)
Definition is_iyield (w : iworker) : bool :=
  match iph w with IHolding _ (S _) | IDone | IDead => true | _ => false end.

Section IMacro.
Variables (len : nat) (known ordered : bool) (stop panics : nat -> bool) (r : Runner).
Notation imstep := (istep len known ordered stop panics (m_dospawn r) (m_nextc r)).

Fixpoint iwmacro (fuel : nat) (s : isys) (i : nat) : isys :=
  match fuel with
  | O => s
  | S f =>
      let s' := imstep s (S i) in
      match nth_error (iws s') i with
      | Some w => if is_iyield w then s' else iwmacro f s' i
      | None => s'
      end
  end.

Definition ismacro (s : isys) : isys :=
  let s1 := imstep s 0 in
  match isph s1 with SpFinal => imstep s1 0 | _ => s1 end.

(** a pull takes: ticket, acquire, one step per element, release *)
Definition ifuel (s : isys) (i : nat) : nat :=
  match nth_error (iws s) i with Some w => icsize w + 8 | None => 1 end.

Definition imacro_step (s : isys) (t : nat) : isys :=
  match t with 0 => ismacro s | S i => iwmacro (ifuel s i) s i end.
Definition imacro_run (s : isys) (sched : list nat) : isys := fold_left imacro_step sched s.

Fixpoint iwmacro_picks (fuel : nat) (s : isys) (i : nat) : list nat :=
  match fuel with
  | O => []
  | S f =>
      let s' := imstep s (S i) in
      S i :: match nth_error (iws s') i with
             | Some w => if is_iyield w then [] else iwmacro_picks f s' i
             | None => []
             end
  end.
Definition imacro_picks (s : isys) (t : nat) : list nat :=
  match t with
  | 0 => let s1 := imstep s 0 in match isph s1 with SpFinal => [0; 0] | _ => [0] end
  | S i => iwmacro_picks (ifuel s i) s i
  end.
(** [expand_of imacro_step imacro_picks], written out *)
Fixpoint iexpand (s : isys) (sched : list nat) : list nat :=
  match sched with
  | [] => []
  | t :: rest => imacro_picks s t ++ iexpand (imacro_step s t) rest
  end.

Lemma iwmacro_is_run fuel s i :
  iwmacro fuel s i = irun len known ordered stop panics (m_dospawn r) (m_nextc r) s (iwmacro_picks fuel s i).
Proof.
  revert s; induction fuel as [|f IH]; intros s; [reflexivity|].
  cbn [iwmacro iwmacro_picks].
  destruct (nth_error (iws (imstep s (S i))) i) as [w|]; [|reflexivity].
  destruct (is_iyield w); [reflexivity|]. apply IH.
Qed.

Lemma imacro_step_is_run s t :
  imacro_step s t = irun len known ordered stop panics (m_dospawn r) (m_nextc r) s (imacro_picks s t).
Proof.
  destruct t as [|i]; cbn [imacro_step imacro_picks].
  - unfold ismacro. destruct (isph (imstep s 0)); reflexivity.
  - apply iwmacro_is_run.
Qed.

Theorem imacro_run_is_run s sched :
  imacro_run s sched = irun len known ordered stop panics (m_dospawn r) (m_nextc r) s (iexpand s sched).
Proof. exact (fold_expand _ _ _ imacro_step_is_run sched s). Qed.

Fixpoint icomplete (rounds : nat) (s : isys) : isys :=
  match rounds with
  | O => s
  | S n =>
      if iall_doneb s then s
      else icomplete n (irun len known ordered stop panics (m_dospawn r) (m_nextc r) s (seq 0 (S (length (iws s)))))
  end.

End IMacro.

Definition iany_dead (s : isys) : bool :=
  existsb (fun w => match iph w with IDead => true | _ => false end) (iws s).

(** which handle protocol a terminal's kernel uses: count / reduce / collect_x go through
    [into_con_iter_x] (first come), the index-reporting kernels keep the ticket order *)
Definition ordered_of (t : terminal) : bool :=
  match t with
  | TCount | TForEach | TReduceT _ | TCollectX
  | TSum | TMinT | TMaxT | TFold _ _ | TMinBy | TMaxBy | TMinKey _ | TMaxKey _ => false
  | _ => true
  end.

(** does this call list contain the panicking call? *)
Definition hits (pt : option (nat * Z)) (l : list (nat * Z)) : bool :=
  match pt with
  | None => false
  | Some (sid, a) => existsb (fun c => Nat.eqb (fst c) sid && Z.eqb (snd c) a) l
  end.

(** the events of a position up to and including the call that panics (what is logged of an
    element whose closure unwinds) *)
Fixpoint cut_panic (pt : option (nat * Z)) (l : list (event Z)) : list (event Z) :=
  match l with
  | [] => []
  | ECall id a :: r =>
      match pt with
      | Some (sid, pa) => if Nat.eqb id sid && Z.eqb a pa then [ECall id a] else ECall id a :: cut_panic pt r
      | None => ECall id a :: cut_panic pt r
      end
  | e :: r => e :: cut_panic pt r
  end.

Definition shift_res (k : nat) (r : result) : result :=
  match r with
  | ROptIx (Some (i, v)) => ROptIx (Some ((k + i)%nat, v))
  | _ => r
  end.

Definition exec0 (c : case) : obs :=
  let pid := length (c_ops c) in
  let t := c_term c in
  let st0 := build (skipn (c_pre c) (c_input c)) (to_ops 0 (c_ops c)) in
  (* for_each(f) = map(f).count(): the map is applied inside the terminal call, so whatever it
     evaluates eagerly counts as run-time work *)
  let st := match t with
            | TForEach => apply_stage st0 (SMap pid (fun x => x))
            | _ => st0
            end in
  let late := skipn (length (ps_clog st0)) (ps_clog st) in
  let p := term_par (ps_par st) t pid in
  let k := kind_of (ps_par st) in
  let src := ps_src st in
  let n := length src in
  let params := ps_params st in
  let seqmode := is_sequential params || empty_collect k t in
  let pt := c_panic c in
  if hits pt (ps_clog st) then
    (* the closure panics while the computation is being built (eager site) or inside for_each's map *)
    mkObs RPanic params (kind_of (ps_par st0)) (ps_clog st0) (ps_consumed st0) [] 0 [] [] false [] true None
  else if seqmode then
    let tr := flat_map (trace p) src in
    let '(res, lg) := finish_seq t tr src p in
    mkObs (if hits pt lg then RPanic else res) params (kind_of (ps_par st0)) (ps_clog st0) (ps_consumed st0)
          [late ++ lg] 0 [] [] true [] true None
  else
    (* a concurrent iterator over an iterator of unknown length that was advanced past its end
       before into_par() has seen [None] and reports length 0; into_con_iter_x (count / reduce /
       collect_x) wraps the inner iterator afresh and forgets that *)
    let exhausted := ordered_of t && (length (c_input c) <? c_pre c)%nat in
    let input_len := if c_known c || (0 <? ps_runs st)%nat || exhausted then Some (N.of_nat n) else None in
    match runner_new params (kernel_task k t) input_len (c_avail c) with
    | None => mkObs RPanic params (kind_of (ps_par st0)) (ps_clog st0) (ps_consumed st0) [] 0 [] [] false [] true None
    | Some r =>
        let pe := pe_of p src in
        let stop := if is_find t then stop_of p src else (fun _ => false) in
        let known := match input_len with Some _ => true | None => false end in
        let consumed := fun i => if is_find t then calls (fst (upto_yield (pe i))) else calls (pe i) in
        let panics := fun i => hits pt (consumed i) in
        (* an eager site turns the source into a ConIterOfVec: indexed whatever the original source was *)
        let iter_src := c_iter c && (ps_runs st =? 0)%nat in
        let '(wl, done, dead) :=
          if iter_src then
            let ord := ordered_of t in
            let si := if c_macro c
                      then imacro_run n known ord stop panics r (iinit (m_c0 r)) (c_sched c)
                      else icomplete n known ord stop panics r (c_fuel c)
                             (irun n known ord stop panics (m_dospawn r) (m_nextc r) (iinit (m_c0 r)) (c_sched c)) in
            (map wk (iws si), iall_doneb si, iany_dead si)
          else
            let s := if c_macro c
                     then macro_run n known stop panics r (init (m_c0 r)) (c_sched c)
                     else complete n known stop panics r (c_fuel c)
                            (run n known stop panics (m_dospawn r) (m_nextc r) (init (m_c0 r)) (c_sched c)) in
            (ws s, all_doneb s, any_dead s) in
        (* after an eager site the terminal runs over a fresh ConIterOfVec: indices start at 0 again *)
        let adv := if (ps_runs st =? 0)%nat then Nat.min (c_pre c) (length (c_input c)) else 0%nat in
        let res := if done && negb dead then finish t pe n (kind_of p) adv wl else RPanic in
        let pel := fun i => cut_panic pt (pe i) in
        let wlog := if is_find t then map (w_calls_find pel) wl else map (w_calls_full pel) wl in
        mkObs res params (kind_of (ps_par st0)) (ps_clog st0) (ps_consumed st0) (late :: wlog)
              (length wl) (map csize wl) (map pulls wl) false (map seen wl) done (Some r)
    end.

Definition exec (c : case) : obs :=
  let o := exec0 c in
  (* the parallel find kernels report the index the concurrent iterator hands out (original
     position); the sequential path enumerates what is left *)
  mkObs (if o_sequential o then o_result o else shift_res (c_pre c) (o_result o)) (o_params o) (o_kind o) (o_clog o) (o_consumed o) (o_rlog o)
        (o_spawned o) (o_chunks o) (o_pulls o) (o_sequential o) (o_seen o) (o_complete o) (o_runner o).
