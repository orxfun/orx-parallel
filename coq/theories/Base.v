(** Base: small list / arithmetic facts shared by the whole development.  The lemmas about
    [l1 ++ w :: l2] ([upd_app_here], [nth_error_app_here], [flat_map_mid_perm], [in_mid_swap],
    [Forall_mid_swap]) serve the step relations of the machines, where the worker list comes with
    the stepping worker split out. *)
From Coq Require Export List Arith NArith ZArith Lia Bool Permutation Sorted.
Export ListNotations.

Set Implicit Arguments.

(** [upd l i x]: replace position [i] of [l] by [x] (no-op when out of range). *)
Fixpoint upd {A} (l : list A) (i : nat) (x : A) : list A :=
  match l, i with
  | [], _ => []
  | _ :: t, 0 => x :: t
  | h :: t, S j => h :: upd t j x
  end.

Lemma upd_length {A} (l : list A) i x : length (upd l i x) = length l.
Proof. revert i; induction l as [|h t IH]; intros [|i]; simpl; auto. Qed.

Lemma upd_app_here {A} (l1 l2 : list A) w w' :
  upd (l1 ++ w :: l2) (length l1) w' = l1 ++ w' :: l2.
Proof. induction l1 as [|h t IH]; simpl; [reflexivity|now rewrite IH]. Qed.

Lemma upd_same {A} (l : list A) i x : nth_error l i = Some x -> upd l i x = l.
Proof.
  revert i; induction l as [|h t IH]; intros [|i] H; try discriminate; cbn in *; [congruence|].
  now rewrite IH.
Qed.

Lemma nth_error_split_at {A} (l : list A) i w :
  nth_error l i = Some w -> exists l1 l2, l = l1 ++ w :: l2 /\ length l1 = i.
Proof. intros H. destruct (nth_error_split l i H) as (l1 & l2 & -> & <-). eauto. Qed.

Lemma nth_error_app_here {A} (l1 l2 : list A) w :
  nth_error (l1 ++ w :: l2) (length l1) = Some w.
Proof. induction l1; auto. Qed.

Lemma nth_error_Some_lt {A} (l : list A) i x : nth_error l i = Some x -> i < length l.
Proof. intros H. apply nth_error_Some. congruence. Qed.

Lemma flat_map_app_mid {A B} (f : A -> list B) l1 w l2 :
  flat_map f (l1 ++ w :: l2) = flat_map f l1 ++ f w ++ flat_map f l2.
Proof. rewrite flat_map_app. reflexivity. Qed.

Lemma flat_map_flat_map {A B C} (f : A -> list B) (g : B -> list C) (xs : list A) :
  flat_map g (flat_map f xs) = flat_map (fun a => flat_map g (f a)) xs.
Proof. induction xs as [|a xs IH]; simpl; [reflexivity|]. now rewrite flat_map_app, IH. Qed.

Lemma flat_map_ret {A} (l : list A) : flat_map (fun a => [a]) l = l.
Proof. induction l as [|a l IH]; simpl; [reflexivity|]. now rewrite IH. Qed.

Lemma flat_map_ext_in {A B} (f g : A -> list B) l :
  (forall x, In x l -> f x = g x) -> flat_map f l = flat_map g l.
Proof.
  induction l as [|a l IH]; simpl; intros H; auto. rewrite H, IH; auto.
Qed.

Lemma flat_map_length_1 {A B} (f : A -> list B) l :
  (forall a, In a l -> length (f a) = 1) -> length (flat_map f l) = length l.
Proof.
  induction l as [|a l IH]; intros H; [reflexivity|]. cbn [flat_map].
  rewrite app_length, H, IH; [reflexivity| |left; reflexivity].
  intros b Hb. apply H. right. exact Hb.
Qed.

Lemma flat_map_app_perm {A B} (f g : A -> list B) (xs : list A) :
  Permutation (flat_map (fun a => f a ++ g a) xs) (flat_map f xs ++ flat_map g xs).
Proof.
  induction xs as [|a xs IH]; simpl; [reflexivity|]. rewrite IH.
  rewrite <- !app_assoc. apply Permutation_app_head.
  rewrite !app_assoc. apply Permutation_app_tail. apply Permutation_app_comm.
Qed.

Lemma flat_map_mid_perm {A B} (f : A -> list B) l1 l2 {w w' extra} : f w' = f w ++ extra ->
  Permutation (flat_map f (l1 ++ w' :: l2)) (flat_map f (l1 ++ w :: l2) ++ extra).
Proof.
  intros E. rewrite !flat_map_app. cbn. rewrite E, <- !app_assoc.
  do 2 apply Permutation_app_head. apply Permutation_app_comm.
Qed.

Lemma flat_map_seq_lt A (f : A -> list nat) l n a x :
  Permutation (flat_map f l) (seq 0 n) -> In a l -> In x (f a) -> x < n.
Proof. intros P Ha Hx. apply (in_seq n 0 x), (Permutation_in _ P), in_flat_map. eauto. Qed.
Arguments flat_map_seq_lt [A] f [l n a x] _ _ _.

Lemma in_mid_swap {A} (l1 l2 : list A) w w' x : In x (l1 ++ w' :: l2) -> x = w' \/ In x (l1 ++ w :: l2).
Proof. rewrite !in_app_iff. cbn. intuition. Qed.

Lemma Forall_app_iff {A} (P : A -> Prop) l1 l2 :
  Forall P (l1 ++ l2) <-> Forall P l1 /\ Forall P l2.
Proof. apply Forall_app. Qed.

Lemma Forall_mid_swap {A} (P : A -> Prop) l1 l2 w w' :
  Forall P (l1 ++ w :: l2) -> P w' -> Forall P (l1 ++ w' :: l2).
Proof. rewrite !Forall_app, !Forall_cons_iff. tauto. Qed.

Lemma Forall_In {A} (P : A -> Prop) l x : Forall P l -> In x l -> P x.
Proof. intros H. now apply Forall_forall. Qed.
Arguments Forall_In {A} [P l x] _ _.

Lemma forallb_false {A} (f : A -> bool) l : forallb f l = false ->
  exists i x, nth_error l i = Some x /\ f x = false.
Proof.
  induction l as [|h t IH]; cbn; [discriminate|]. destruct (f h) eqn:E.
  - intros H. destruct (IH H) as (i & x & Hi). now exists (S i), x.
  - now exists 0, h.
Qed.

Lemma filter_witness {A} (p : A -> bool) l : 1 <= length (filter p l) ->
  exists i x, nth_error l i = Some x /\ p x = true.
Proof.
  induction l as [|h t IH]; cbn; [lia|]. destruct (p h) eqn:E.
  - now exists 0, h.
  - intros H. destruct (IH H) as (i & x & Hi). now exists (S i), x.
Qed.

Lemma filter_witnessed {A} (p : A -> bool) l i x : nth_error l i = Some x -> p x = true -> 1 <= length (filter p l).
Proof.
  revert i; induction l as [|h t IH]; intros [|i] Hi Hx; try discriminate; cbn.
  - injection Hi as ->. rewrite Hx. cbn. lia.
  - destruct (p h); cbn; eauto with arith.
Qed.

Lemma seq_app_S a k : seq a (S k) = seq a k ++ [a + k].
Proof. now rewrite seq_S. Qed.

Lemma seq_split a k j : seq a (k + j) = seq a k ++ seq (a + k) j.
Proof. apply seq_app. Qed.

Definition sum_list (l : list nat) : nat := fold_right Nat.add 0 l.

Lemma sum_list_app l1 l2 : sum_list (l1 ++ l2) = sum_list l1 + sum_list l2.
Proof. apply list_sum_app. Qed.

Lemma sum_list_perm l1 l2 : Permutation l1 l2 -> sum_list l1 = sum_list l2.
Proof. apply Permutation_list_sum. Qed.

Lemma sum_list_map_le {A} (f g : A -> nat) l :
  Forall (fun a => f a <= g a) l -> sum_list (map f l) <= sum_list (map g l).
Proof. unfold sum_list. induction 1; cbn; lia. Qed.

Lemma NoDup_app_remove_r {A} (l1 l2 : list A) : NoDup (l1 ++ l2) -> NoDup l1.
Proof.
  induction l1 as [|a l1 IH]; intros H; [constructor|]. inversion H.
  constructor; auto. intros Hin; apply H2; apply in_or_app; auto.
Qed.

(** the induction over schedules, made once: what every step preserves holds after every run *)
Lemma run_inv {S T} (step : S -> T -> S) (P : S -> Prop) :
  (forall s t, P s -> P (step s t)) -> forall l s, P s -> P (fold_left step l s).
Proof. intros H l. induction l; cbn; auto. Qed.

Section SSorted.
Variables (A : Type) (R : A -> A -> Prop).

Lemma SSorted_app l1 l2 :
  StronglySorted R l1 -> StronglySorted R l2 -> (forall x y, In x l1 -> In y l2 -> R x y) ->
  StronglySorted R (l1 ++ l2).
Proof.
  induction l1 as [|a l1 IH]; simpl; intros H1 H2 H; auto.
  inversion H1. constructor.
  - apply IH; auto.
  - apply Forall_app; split; auto. apply Forall_forall; intros y Hy. apply H; auto.
Qed.

Lemma SSorted_app_inv l1 l2 :
  StronglySorted R (l1 ++ l2) ->
  StronglySorted R l1 /\ StronglySorted R l2 /\ (forall x y, In x l1 -> In y l2 -> R x y).
Proof.
  induction l1 as [|a l1 IH]; intros H.
  - repeat split; auto. constructor. intros ? ? [].
  - inversion H as [|? ? Hs Hf]; subst. destruct (IH Hs) as (I1 & I2 & I3).
    apply Forall_app in Hf as [F1 F2]. repeat split; auto.
    + constructor; auto.
    + intros x y [<-|Hx] Hy; [|auto]. rewrite Forall_forall in F2; auto.
Qed.

End SSorted.

Definition incr (l : list nat) : Prop := StronglySorted lt l.

Lemma incr_app l1 l2 :
  incr l1 -> incr l2 -> (forall x y, In x l1 -> In y l2 -> x < y) -> incr (l1 ++ l2).
Proof. apply SSorted_app. Qed.

Lemma incr_app_inv l1 l2 :
  incr (l1 ++ l2) -> incr l1 /\ incr l2 /\ (forall x y, In x l1 -> In y l2 -> x < y).
Proof. apply SSorted_app_inv. Qed.

Lemma incr_seq a k : incr (seq a k).
Proof.
  unfold incr. revert a; induction k as [|k IH]; intros a; simpl; constructor; auto.
  apply Forall_forall; intros y Hy. apply in_seq in Hy. lia.
Qed.

Lemma incr_NoDup l : incr l -> NoDup l.
Proof.
  unfold incr. induction 1 as [|a l Hs IH Hf]; constructor; auto.
  intros Hin. rewrite Forall_forall in Hf. specialize (Hf _ Hin). lia.
Qed.

Lemma incr_perm_eq l1 l2 : incr l1 -> incr l2 -> Permutation l1 l2 -> l1 = l2.
Proof.
  intros H1; revert l2; induction H1 as [|a l1 _ IH F1]; intros l2 H2 P.
  - now apply Permutation_nil in P.
  - destruct H2 as [|b l2 S2 F2]; [now apply Permutation_sym, Permutation_nil in P|].
    rewrite Forall_forall in F1, F2.
    (* the heads are each other's lower bounds *)
    assert (a = b) as <-.
    { destruct (Permutation_in a P (or_introl eq_refl)) as [|Ia]; [easy|].
      destruct (Permutation_in b (Permutation_sym P) (or_introl eq_refl)) as [|Ib]; [easy|].
      specialize (F1 _ Ib). specialize (F2 _ Ia). lia. }
    f_equal. eauto using Permutation_cons_inv.
Qed.
