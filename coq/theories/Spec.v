(** Spec: the std-iterator semantics of a chain of map / filter / flat_map / filter_map
    adaptors, as the depth-first trace of closure calls and yielded values per source element.

    A std chain is pull based: for each source element, every adaptor closure is evaluated
    depth first, lazily (a closure downstream of a [flat_map] runs once per sub-element, in
    order).  [ev c v] is that trace for one source element [v]; a full consumer sees all of it,
    a short-circuit consumer ([find]) a prefix.  Closure identities are naturals. *)
From OrxPar Require Import Base.
Set Implicit Arguments.

Section Spec.
Variable V : Type.

Inductive stage :=
| SMap (id : nat) (f : V -> V)
| SFilter (id : nat) (p : V -> bool)
| SFlatMap (id : nat) (g : V -> list V)
| SFilterMap (id : nat) (h : V -> option V).

Inductive event := ECall (id : nat) (arg : V) | EYield (v : V).

Definition chain := list stage.

Fixpoint ev (c : chain) (v : V) : list event :=
  match c with
  | [] => [EYield v]
  | SMap id f :: r => ECall id v :: ev r (f v)
  | SFilter id p :: r => ECall id v :: (if p v then ev r v else [])
  | SFlatMap id g :: r => ECall id v :: flat_map (ev r) (g v)
  | SFilterMap id h :: r => ECall id v :: (match h v with Some y => ev r y | None => [] end)
  end.

Definition yields (l : list event) : list V :=
  flat_map (fun e => match e with EYield v => [v] | ECall _ _ => [] end) l.

Definition calls (l : list event) : list (nat * V) :=
  flat_map (fun e => match e with ECall id a => [(id, a)] | EYield _ => [] end) l.

(** the values one source element contributes to the output, without the trace *)
Fixpoint out (c : chain) (v : V) : list V :=
  match c with
  | [] => [v]
  | SMap _ f :: r => out r (f v)
  | SFilter _ p :: r => if p v then out r v else []
  | SFlatMap _ g :: r => flat_map (out r) (g v)
  | SFilterMap _ h :: r => match h v with Some y => out r y | None => [] end
  end.

(** what [input.iter().<chain>.collect::<Vec<_>>()] returns *)
Definition seq_chain (c : chain) (input : list V) : list V := flat_map (out c) input.

(** the calls a full sequential evaluation makes, in order *)
Definition seq_log (c : chain) (input : list V) : list (nat * V) :=
  flat_map (fun x => calls (ev c x)) input.

(** [bind l k]: replace every yielded value of a trace by the trace [k] produces for it *)
Definition bind (l : list event) (k : V -> list event) : list event :=
  flat_map (fun e => match e with EYield v => k v | ECall _ _ => [e] end) l.

(** prefix of a trace up to and including the first yield (what [find] consumes), and the
    value yielded, if a yield was reached *)
Fixpoint upto_yield (l : list event) : list event * option V :=
  match l with
  | [] => ([], None)
  | EYield v :: _ => ([EYield v], Some v)
  | e :: r => let '(p, o) := upto_yield r in (e :: p, o)
  end.

Definition first_yield (l : list event) : option V := snd (upto_yield l).

(** sequential short-circuit evaluation over a list of source elements:
    trace consumed, and the first yield with the position of its source element *)
Fixpoint seq_find_from (c : chain) (i : nat) (input : list V) : list event * option (nat * V) :=
  match input with
  | [] => ([], None)
  | x :: r =>
      let '(p, o) := upto_yield (ev c x) in
      match o with
      | Some v => (p, Some (i, v))
      | None => let '(p', o') := seq_find_from c (S i) r in (p ++ p', o')
      end
  end.

Definition seq_find (c : chain) (input : list V) := seq_find_from c 0 input.

(** left fold without identity: [Iterator::reduce] *)
Definition reduce_list (op : V -> V -> V) (l : list V) : option V :=
  match l with
  | [] => None
  | x :: r => Some (fold_left op r x)
  end.

End Spec.

Arguments SMap {V}. Arguments SFilter {V}. Arguments SFlatMap {V}. Arguments SFilterMap {V}.
Arguments ECall {V}. Arguments EYield {V}.

Section SpecFacts.
Variable V : Type.
Implicit Types (c : chain V) (l : list (event V)).

(** [yields], [calls] and [bind] are [flat_map]s: their laws are those of [flat_map] *)
Lemma yields_app l1 l2 : yields (l1 ++ l2) = yields l1 ++ yields l2.
Proof. apply flat_map_app. Qed.

Lemma calls_app l1 l2 : calls (l1 ++ l2) = calls l1 ++ calls l2.
Proof. apply flat_map_app. Qed.

Lemma bind_app l1 l2 k : bind (l1 ++ l2) k = bind l1 k ++ bind l2 k.
Proof. apply flat_map_app. Qed.

Lemma yields_flat_map {A} (f : A -> list (event V)) (xs : list A) :
  yields (flat_map f xs) = flat_map (fun x => yields (f x)) xs.
Proof. apply flat_map_flat_map. Qed.

Lemma calls_flat_map {A} (f : A -> list (event V)) (xs : list A) :
  calls (flat_map f xs) = flat_map (fun x => calls (f x)) xs.
Proof. apply flat_map_flat_map. Qed.

Lemma bind_flat_map {A} (f : A -> list (event V)) (xs : list A) k :
  bind (flat_map f xs) k = flat_map (fun x => bind (f x) k) xs.
Proof. apply flat_map_flat_map. Qed.

Lemma bind_nil k : bind (@nil (event V)) k = [].
Proof. reflexivity. Qed.

Lemma bind_call id a l k : bind (ECall id a :: l) k = ECall id a :: bind l k.
Proof. reflexivity. Qed.

Lemma bind_yield v l k : bind (EYield v :: l) k = k v ++ bind l k.
Proof. reflexivity. Qed.

Lemma bind_yield1 (v : V) k : bind [EYield v] k = k v.
Proof. apply app_nil_r. Qed.

Lemma yields_cons_call id a l : yields (ECall id a :: l) = yields l.
Proof. reflexivity. Qed.

Lemma yields_cons_yield v l : yields (EYield v :: l) = v :: yields l.
Proof. reflexivity. Qed.

Lemma calls_cons_call id a l : calls (ECall id a :: l) = (id, a) :: calls l.
Proof. reflexivity. Qed.

Lemma calls_cons_yield v l : calls (EYield v :: l) = calls l.
Proof. reflexivity. Qed.

Lemma bind_assoc l k1 k2 : bind (bind l k1) k2 = bind l (fun v => bind (k1 v) k2).
Proof.
  unfold bind. rewrite flat_map_flat_map. apply flat_map_ext. intros []; reflexivity.
Qed.

Lemma bind_ext l k1 k2 : (forall v, k1 v = k2 v) -> bind l k1 = bind l k2.
Proof. intros H. apply flat_map_ext. intros [|v]; [reflexivity|apply H]. Qed.

Lemma bind_ret l : bind l (fun v => [EYield v]) = l.
Proof.
  transitivity (flat_map (fun e => [e]) l); [|apply flat_map_ret].
  apply flat_map_ext. intros []; reflexivity.
Qed.

Lemma yields_bind l k : yields (bind l k) = flat_map (fun v => yields (k v)) (yields l).
Proof.
  unfold yields at 1 3, bind. rewrite !flat_map_flat_map. apply flat_map_ext.
  intros [|v]; [reflexivity|]. symmetry. apply app_nil_r.
Qed.

(** the trace of a longer chain is the trace of the shorter one continued at every yield *)
Lemma ev_app c1 c2 v : ev (c1 ++ c2) v = bind (ev c1 v) (ev c2).
Proof.
  revert v; induction c1 as [|s c1 IH]; intros v.
  - cbn [app ev]. now rewrite bind_yield1.
  - destruct s as [id f|id p|id g|id h]; cbn [app ev]; rewrite bind_call; f_equal.
    + apply IH.
    + destruct (p v); [apply IH|reflexivity].
    + rewrite bind_flat_map. apply flat_map_ext, IH.
    + destruct (h v); [apply IH|reflexivity].
Qed.

Lemma ev1_map id (f : V -> V) v : ev [SMap id f] v = [ECall id v; EYield (f v)].
Proof. reflexivity. Qed.

Lemma ev1_filter id (q : V -> bool) v :
  ev [SFilter id q] v = ECall id v :: (if q v then [EYield v] else []).
Proof. reflexivity. Qed.

Lemma ev1_flat_map id (g : V -> list V) v :
  ev [SFlatMap id g] v = ECall id v :: map (@EYield V) (g v).
Proof. reflexivity. Qed.

Lemma ev1_filter_map id (h : V -> option V) v :
  ev [SFilterMap id h] v = ECall id v :: (match h v with Some y => [EYield y] | None => [] end).
Proof. reflexivity. Qed.

Lemma yields_ev c v : yields (ev c v) = out c v.
Proof.
  revert v; induction c as [|s c IH]; intros v; [reflexivity|].
  destruct s as [id f|id p|id g|id h]; cbn [ev out]; rewrite yields_cons_call.
  - apply IH.
  - destruct (p v); [apply IH|reflexivity].
  - rewrite yields_flat_map. apply flat_map_ext, IH.
  - destruct (h v); [apply IH|reflexivity].
Qed.

Lemma seq_chain_yields c input : flat_map (fun v => yields (ev c v)) input = seq_chain c input.
Proof. apply flat_map_ext. apply yields_ev. Qed.

Lemma out_app c1 c2 v : out (c1 ++ c2) v = flat_map (out c2) (out c1 v).
Proof. rewrite <- !yields_ev, ev_app, yields_bind. apply seq_chain_yields. Qed.

Lemma seq_chain_app c1 c2 input :
  seq_chain (c1 ++ c2) input = seq_chain c2 (seq_chain c1 input).
Proof.
  unfold seq_chain. rewrite flat_map_flat_map. apply flat_map_ext. apply out_app.
Qed.

Lemma seq_chain_nil input : seq_chain (@nil (stage V)) input = input.
Proof. apply flat_map_ret. Qed.

Lemma seq_log_nil input : seq_log (@nil (stage V)) input = [].
Proof. induction input as [|x r IH]; [reflexivity|exact IH]. Qed.

Lemma seq_chain_cat c i1 i2 : seq_chain c (i1 ++ i2) = seq_chain c i1 ++ seq_chain c i2.
Proof. unfold seq_chain. apply flat_map_app. Qed.

(** The calls of a continued trace are those of the trace and those of the continuations, in
    another order: a continuation runs at its yield, before the trace's later calls. *)
Lemma calls_bind_perm l k :
  Permutation (calls (bind l k)) (calls l ++ flat_map (fun v => calls (k v)) (yields l)).
Proof.
  induction l as [|[id a|v] l IH]; [reflexivity| |].
  - rewrite bind_call. simpl. now constructor.
  - rewrite bind_yield, calls_app, IH. simpl.
    rewrite !app_assoc. apply Permutation_app_tail, Permutation_app_comm.
Qed.

Lemma seq_log_app_perm c1 c2 input :
  Permutation (seq_log (c1 ++ c2) input) (seq_log c1 input ++ seq_log c2 (seq_chain c1 input)).
Proof.
  (* with [tr] the whole trace of [c1] over [input], the left side is [calls (bind tr (ev c2))], the
     right side [calls tr ++ flat_map (fun v => calls (ev c2 v)) (yields tr)]: [calls_bind_perm] *)
  rewrite <- seq_chain_yields, <- yields_flat_map. unfold seq_log at 1 2.
  rewrite <- !calls_flat_map, (flat_map_ext _ _ (ev_app c1 c2)), <- bind_flat_map.
  apply calls_bind_perm.
Qed.

Lemma upto_yield_app_none l1 l2 : snd (upto_yield l1) = None ->
  upto_yield (l1 ++ l2) = (l1 ++ fst (upto_yield l2), snd (upto_yield l2)).
Proof.
  induction l1 as [|[id a|v] l1 IH]; simpl; intros H.
  - now destruct (upto_yield l2).
  - destruct (upto_yield l1) as [p o]. now rewrite IH.
  - discriminate.
Qed.

Lemma upto_yield_none_all l : snd (upto_yield l) = None -> fst (upto_yield l) = l /\ yields l = [].
Proof.
  induction l as [|[id a|v] l IH]; simpl; intros H; auto.
  - destruct (upto_yield l) as [p o]; simpl in *. destruct (IH H) as [-> ->]. auto.
  - discriminate.
Qed.

Lemma reduce_list_none (f : V -> V -> V) (l : list V) : reduce_list f l = None <-> l = [].
Proof. now destruct l. Qed.

Lemma upto_yield_some l v : snd (upto_yield l) = Some v ->
  exists pre post, l = pre ++ EYield v :: post /\ fst (upto_yield l) = pre ++ [EYield v] /\ yields pre = [].
Proof.
  induction l as [|[id a|u] l IH]; simpl; [discriminate| |].
  - destruct (upto_yield l) as [p o]. intros H.
    destruct (IH H) as (pre & post & -> & E2 & E3).
    exists (ECall id a :: pre), post. simpl in *. rewrite E2. auto.
  - intros [= ->]. exists [], l. auto.
Qed.

Lemma first_yield_hd l : first_yield l = hd_error (yields l).
Proof.
  unfold first_yield. induction l as [|[id a|v] l IH]; simpl; auto.
  destruct (upto_yield l); auto.
Qed.

End SpecFacts.

Arguments bind : simpl never.
