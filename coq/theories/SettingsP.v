(** SettingsP: facts about the settings arithmetic (the settings parts of C08, C11, C12, C15). *)
From OrxPar Require Import Base Settings.

Local Open Scope N_scope.

Lemma usize_max_eq : usize_max = 2 ^ 64 - 1.
Proof. reflexivity. Qed.

Lemma cmul_some a b : a * b <= usize_max -> cmul a b = Some (a * b).
Proof. unfold cmul. intros H. now apply N.leb_le in H as ->. Qed.

Lemma cadd_some a b : a + b <= usize_max -> cadd a b = Some (a + b).
Proof. unfold cadd. intros H. now apply N.leb_le in H as ->. Qed.

Lemma csub_some a b : b <= a -> csub a b = Some (a - b).
Proof. unfold csub. intros H. now apply N.leb_le in H as ->. Qed.

Lemma cdiv_spec a b : 0 < b -> exists q, cdiv a b = Some q /\ q * b <= a < (q + 1) * b.
Proof.
  unfold cdiv. intros H. destruct (N.eqb_spec b 0); [lia|].
  exists (a / b). split; [reflexivity|].
  pose proof (N.mul_div_le a b). pose proof (N.mul_succ_div_gt a b). lia.
Qed.

Lemma cmul_inv a b c : cmul a b = Some c -> c = a * b.
Proof. unfold cmul. destruct (_ <=? _); [intros [= <-]; reflexivity|discriminate]. Qed.

Lemma csub_inv a b c : csub a b = Some c -> a = c + b.
Proof. unfold csub. destruct (N.leb_spec b a); [intros [= <-]; lia|discriminate]. Qed.

Lemma obind_inv {A B} (o : option A) (f : A -> option B) b :
  obind o f = Some b -> exists a, o = Some a /\ f a = Some b.
Proof. destruct o as [a|]; [exists a; auto|discriminate]. Qed.

Lemma calc_num_threads_le_avail len avail nt : calc_num_threads len avail nt <= avail.
Proof. unfold calc_num_threads. destruct nt; lia. Qed.

Lemma calc_num_threads_le_max len avail n : calc_num_threads len avail (NTMax n) <= n.
Proof. unfold calc_num_threads. lia. Qed.

Lemma calc_num_threads_le_len len avail nt : calc_num_threads (Some len) avail nt <= len.
Proof. unfold calc_num_threads. destruct nt; lia. Qed.

Lemma min_required_len_some task x : x * 8 <= usize_max ->
  exists r, min_required_len task x = Some r.
Proof. intros H. destruct task; cbn [min_required_len]; rewrite cmul_some by lia; eauto. Qed.

(** The halving loop started anywhere below [2 ^ fuel] answers, with a chunk size between 1 and
    where it started: a round that does not answer halves a chunk that is at least 2. *)
Lemma find_chunk_size_loop_total fuel task len nthreads : forall chunk,
  1 <= chunk < 2 ^ N.of_nat fuel -> chunk * nthreads * 8 <= usize_max ->
  exists c, find_chunk_size_loop fuel task len nthreads chunk = Some c /\ 1 <= c <= chunk.
Proof.
  induction fuel as [|fuel IH]; intros chunk Hc Hb; [cbn in Hc; lia|].
  cbn [find_chunk_size_loop]. rewrite cmul_some by lia. cbn [obind].
  destruct (min_required_len_some task (chunk * nthreads) Hb) as [r ->]. cbn [obind].
  assert (Hs : exists c, Some chunk = Some c /\ 1 <= c <= chunk)
    by (exists chunk; split; [reflexivity|lia]).
  destruct (r <=? len); [exact Hs|]. destruct (_ && _)%bool; [exact Hs|].
  destruct (N.eqb_spec chunk 1); [exact Hs|].
  (* halve: [chunk / 2] is at least 1, below [2 ^ fuel], and its products are smaller *)
  rewrite Nat2N.inj_succ, N.pow_succ_r' in Hc. rewrite N.shiftr_div_pow2. change (2 ^ 1) with 2.
  pose proof (N.mul_div_le chunk 2). pose proof (N.mul_succ_div_gt chunk 2).
  destruct (IH (chunk / 2)) as (c & -> & Hc'); [lia|nia|]. exists c. split; [reflexivity|lia].
Qed.

Lemma find_chunk_size_total task len nthreads :
  INITIAL_CHUNK_SIZE * nthreads * 8 <= usize_max ->
  exists c, find_chunk_size task len nthreads = Some c /\ 1 <= c <= INITIAL_CHUNK_SIZE.
Proof. apply find_chunk_size_loop_total. now split. Qed.

Lemma auto_chunk_size_total task len nthreads :
  INITIAL_CHUNK_SIZE * nthreads * 8 <= usize_max ->
  exists c, auto_chunk_size task len nthreads = Some c /\ 1 <= c <= INITIAL_CHUNK_SIZE.
Proof.
  intros Hn. unfold auto_chunk_size. destruct len as [[|p]|].
  - now exists 1.
  - apply find_chunk_size_total, Hn.
  - now exists 1.
Qed.

Lemma div_ceil_total n d : 0 < d -> n <= usize_max ->
  exists c, div_ceil n d = Some c /\ n <= c * d < n + d.
Proof.
  intros Hd Hn. unfold div_ceil. destruct (cdiv_spec n d Hd) as (q & -> & Hq). cbn [obind].
  rewrite cmul_some by lia. cbn [obind]. rewrite (csub_some _ _ (proj1 Hq)). cbn [obind].
  (* with or without a remainder; a remainder means [d >= 2], so [q + 1] is in range even when
     [n = usize_max] *)
  destruct (N.ltb_spec 0 (n - q * d));
    (rewrite cadd_some by nia; eexists; split; [reflexivity|nia]).
Qed.

Lemma min_chunk_size_total len nthreads c :
  1 <= nthreads -> 1 <= c ->
  match len with Some l => l <= usize_max | None => True end ->
  exists c', min_chunk_size len nthreads c = Some c' /\ 1 <= c' <= c.
Proof.
  intros Hn Hc Hl. unfold min_chunk_size. destruct len as [[|p]|].
  - exists 1. split; [reflexivity|lia].
  - destruct (N.ltb_spec (N.pos p) (sat_mul nthreads c)) as [Hlt|Hge].
    + destruct (div_ceil_total (N.pos p) nthreads) as (c' & -> & Hc'); [lia|exact Hl|].
      exists c'. split; [reflexivity|]. unfold sat_mul in Hlt. nia.
    + exists c. split; [reflexivity|lia].
  - exists c. split; [reflexivity|lia].
Qed.

(** ** Runner::new is total and yields positive settings (C15, settings part)

    Bounds: [avail <= 2^16] hardware threads (used as [INITIAL_CHUNK_SIZE * avail * 8 <= usize_max],
    the first products of the halving search), known input length [<= 2^47] (the address-space
    bound on a slice of non-zero-sized elements is larger; used only as [<= usize_max],
    [len_wf_le]), requested chunk size any non-zero [usize]. *)

Definition chunk_wf (cs : ChunkSize) : Prop :=
  match cs with CSAuto => True | CSMin c => 1 <= c <= usize_max | CSExact c => 1 <= c <= usize_max end.
Definition threads_wf (nt : NumThreads) : Prop :=
  match nt with NTAuto => True | NTMax n => 1 <= n <= usize_max end.
Definition len_wf (len : option N) : Prop :=
  match len with Some l => l <= 2 ^ 47 | None => True end.

Lemma len_wf_le l : len_wf (Some l) -> l <= usize_max.
Proof. cbn [len_wf]. assert (2 ^ 47 <= usize_max) by discriminate. lia. Qed.

Lemma validate_some r : 1 <= r_inner r -> validate r = Some r.
Proof. unfold validate. intros H. destruct (N.ltb_spec 0 (r_inner r)); [reflexivity|lia]. Qed.

Lemma validate_inv r r' : validate r = Some r' -> r' = r /\ 1 <= r_inner r.
Proof.
  unfold validate. destruct (N.ltb_spec 0 (r_inner r)); [intros [= <-]|discriminate].
  split; [reflexivity|lia].
Qed.

Lemma calc_chunk_size_total task len nthreads cs :
  1 <= nthreads -> INITIAL_CHUNK_SIZE * nthreads * 8 <= usize_max ->
  match len with Some l => l <= usize_max | None => True end -> chunk_wf cs ->
  exists r, calc_chunk_size task len nthreads cs = Some r /\ 1 <= r_inner r <= usize_max.
Proof.
  intros Hn Hi Hl Hc. unfold calc_chunk_size.
  set (o := match cs with CSAuto => _ | _ => _ end).
  (* [validate] passes whatever [o] resolves to, if that is in range *)
  enough (exists r, o = Some r /\ 1 <= r_inner r <= usize_max) as (r & -> & Hr).
  { exists r. cbn [obind]. rewrite validate_some by apply Hr. auto. }
  subst o. destruct cs as [|c|c]; cbn [chunk_wf] in Hc.
  - destruct (auto_chunk_size_total task len nthreads Hi) as (c & -> & Hc1).
    exists (RMin c). split; [reflexivity|]. cbn [r_inner]. nia.
  - destruct (min_chunk_size_total len nthreads c Hn (proj1 Hc) Hl) as (c' & -> & Hc1).
    exists (RMin c'). split; [reflexivity|]. cbn [r_inner]. lia.
  - eexists. split; [reflexivity|]. cbn [r_inner]. destruct len; lia.
Qed.

Lemma calc_chunk_size_kind task len nthreads cs r :
  calc_chunk_size task len nthreads cs = Some r ->
  match cs with
  | CSExact c => r = RExact (match len with Some l => N.min c (N.max l 1) | None => c end)
  | _ => r_is_exact r = false
  end.
Proof.
  unfold calc_chunk_size. intros H. apply obind_inv in H as (r0 & H0 & H).
  apply validate_inv in H as [-> _]. destruct cs as [|c|c].
  - apply obind_inv in H0 as (c & _ & [= <-]). reflexivity.
  - apply obind_inv in H0 as (c' & _ & [= <-]). reflexivity.
  - injection H0 as <-. reflexivity.
Qed.

Definition runner_wf (r : Runner) : Prop :=
  1 <= r_max_threads r /\ 1 <= r_inner (r_chunk r) <= usize_max /\ len_wf (r_input_len r).

(** What the machines need of a runner.  Every runner [runner_new] returns has it, whatever the
    inputs; [runner_wf] adds the ranges that the totality theorems need. *)
Definition runner_pos (r : Runner) : Prop := 1 <= r_max_threads r /\ 1 <= r_inner (r_chunk r).

Lemma runner_wf_pos r : runner_wf r -> runner_pos r.
Proof. intros (H1 & [H2 _] & _). now split. Qed.
Arguments runner_wf_pos [r] _.

Lemma runner_new_inv params task len avail r :
  runner_new params task len avail = Some r ->
  r_input_len r = len /\
  r_max_threads r = N.max (calc_num_threads len avail (p_threads params)) 1 /\
  calc_chunk_size task len (r_max_threads r) (p_chunk params) = Some (r_chunk r).
Proof.
  unfold runner_new. intros H. apply obind_inv in H as (ch & Hch & [= <-]). auto.
Qed.

Lemma runner_new_pos params task len avail r :
  runner_new params task len avail = Some r -> runner_pos r.
Proof.
  intros H. unfold runner_pos. apply runner_new_inv in H as (_ & -> & H).
  unfold calc_chunk_size in H. apply obind_inv in H as (r0 & _ & H).
  apply validate_inv in H as [-> H]. split; [lia|exact H].
Qed.

Theorem runner_new_total params task len avail :
  1 <= avail <= 2 ^ 16 -> len_wf len -> chunk_wf (p_chunk params) ->
  exists r, runner_new params task len avail = Some r /\ runner_wf r
            /\ r_input_len r = len
            /\ r_max_threads r = N.max (calc_num_threads len avail (p_threads params)) 1
            /\ r_max_threads r <= avail.
Proof.
  intros Ha Hl Hc. unfold runner_new.
  pose proof (calc_num_threads_le_avail len avail (p_threads params)) as Hle.
  set (m := N.max _ 1). assert (Hm : 1 <= m <= avail) by lia.
  destruct (calc_chunk_size_total task len m (p_chunk params)) as (ch & -> & Hch);
    [lia|unfold INITIAL_CHUNK_SIZE, usize_max; lia|destruct len; [now apply len_wf_le|exact I]|exact Hc|].
  cbn [obind]. eexists; split; [reflexivity|]. unfold runner_wf; cbn. tauto.
Qed.

(** With [Max n] at most [n] threads are ever allowed (C08, settings part). *)
Theorem runner_new_max_threads params task len avail n r :
  p_threads params = NTMax n -> 1 <= n ->
  runner_new params task len avail = Some r -> r_max_threads r <= n.
Proof.
  intros Hp Hn H. apply runner_new_inv in H as (_ & -> & _). rewrite Hp.
  pose proof (calc_num_threads_le_max len avail n). lia.
Qed.

(** [do_spawn] and both variants of [next_chunk_size] open with the same test,
    [num_spawned >= max_threads - 1]; [no] is their answer when it holds. *)
Lemma below_max_inv {A} r ns (no : A) (rest : option A) a :
  (do m1 <- csub (r_max_threads r) 1; if m1 <=? ns then Some no else rest) = Some a ->
  a = no \/ ns + 1 < r_max_threads r /\ rest = Some a.
Proof.
  intros H. apply obind_inv in H as (m1 & Hm & H). apply csub_inv in Hm.
  destruct (N.leb_spec m1 ns); [left; congruence|right; split; [lia|exact H]].
Qed.

Lemma do_spawn_total r ns h : runner_wf r ->
  do_spawn r ns h = Some (if r_max_threads r - 1 <=? ns then false else negb (hm_is_no h)).
Proof.
  intros (H1 & _). unfold do_spawn. rewrite (csub_some _ _ H1). cbn [obind].
  destruct (r_max_threads r - 1 <=? ns); reflexivity.
Qed.

Lemma do_spawn_true_bound r ns h : do_spawn r ns h = Some true ->
  ns + 1 < r_max_threads r /\ hm_is_no h = false.
Proof.
  intros H. apply below_max_inv in H as [[=]|[Hns H]]. split; [exact Hns|].
  destruct (hm_is_no h); [discriminate|reflexivity].
Qed.

(** What a chunk size that was handed out looks like.  Partial correctness, so no bounds:
    the machine (Program.v) passes a [has_more] that nothing ties to [r_input_len r], and
    can use this where it cannot use [next_chunk_size_total]. *)
Lemma next_chunk_size_shape r ns h c : next_chunk_size r ns h = Some (Some c) ->
  ns + 1 < r_max_threads r /\
  (forall x, r_chunk r = RExact x -> c = x) /\
  (exists k, 1 <= k /\ c = k * r_inner (r_chunk r)).
Proof.
  (* all branches but one hand out the resolved size: multiplier 1 *)
  assert (Hone : (forall x, r_chunk r = RExact x -> r_inner (r_chunk r) = x) /\
                 exists k, 1 <= k /\ r_inner (r_chunk r) = k * r_inner (r_chunk r)).
  { split; [intros x ->; reflexivity|exists 1; lia]. }
  unfold next_chunk_size. destruct h as [[|rem]|]; [discriminate| |]; intros H.
  - apply below_max_inv in H as [[=]|[Hns H]]. split; [exact Hns|].
    destruct (r_chunk r) as [x|x]; cbn [r_inner] in *.
    + (* RMin: the one branch that multiplies *)
      destruct (ns =? 0); [injection H as <-; exact Hone|].
      apply obind_inv in H as (done & _ & H). apply obind_inv in H as (dpt & _ & H).
      apply obind_inv in H as (q & _ & H). apply obind_inv in H as (c' & Hc' & [= <-]).
      apply cmul_inv in Hc'. split; [discriminate|].
      exists (N.max (N.max q 1) 1). split; [lia|exact Hc'].
    + (* RExact *) injection H as <-. exact Hone.
  - apply below_max_inv in H as [[=]|[Hns [= <-]]]. split; [exact Hns|exact Hone].
Qed.

(** The spawner's view of the remaining length never exceeds the initial length
    ([try_get_len] is non-increasing: an invariant of the source model). *)
Definition hm_wf (r : Runner) (h : HasMore) : Prop :=
  match h, r_input_len r with
  | Some rem, Some len => rem <= len
  | Some rem, None => rem <= usize_max
  | None, _ => True
  end.

Theorem next_chunk_size_total r ns h : runner_wf r -> hm_wf r h ->
  exists o, next_chunk_size r ns h = Some o /\
            match o with
            | None => True
            | Some c => 1 <= c <= usize_max /\ ns + 1 < r_max_threads r /\
                        (forall x, r_chunk r = RExact x -> c = x) /\
                        (exists k, 1 <= k /\ c = k * r_inner (r_chunk r))
            end.
Proof.
  intros (H1 & Hc & Hl) Hh.
  (* the shape comes with any answer; what the bounds give is that there is one, in range *)
  enough (exists o, next_chunk_size r ns h = Some o /\
                    match o with Some c => c <= usize_max | None => True end) as (o & Ho & Hm).
  { exists o. split; [exact Ho|]. destruct o as [c|]; [|exact I].
    destruct (next_chunk_size_shape _ _ _ _ Ho) as (Hns & Hx & k & Hk & Hck).
    repeat split; [nia|exact Hm|exact Hns|exact Hx|exists k; auto]. }
  unfold next_chunk_size. destruct h as [[|rem]|].
  - (* nothing left *) now exists None.
  - (* [rem] elements left *)
    unfold next_chunk_size_known_len. rewrite (csub_some _ _ H1). cbn [obind].
    destruct (_ <=? ns); [now exists None|].
    destruct (r_chunk r) as [x|x]; cbn [r_inner] in *.
    + (* RMin *) destruct (N.eqb_spec ns 0) as [->|Hns].
      * (* the first worker gets the resolved size *)
        exists (Some x). split; [reflexivity|apply Hc].
      * (* later ones a multiple of it *)
        set (len := match r_input_len r with Some l => l | None => usize_max end).
        assert (Hrl : N.pos rem <= len <= usize_max).
        { subst len. unfold hm_wf in Hh. destruct (r_input_len r) as [l|]; [|lia].
          pose proof (len_wf_le l Hl). lia. }
        rewrite (csub_some _ _ (proj1 Hrl)). cbn [obind].
        destruct (cdiv_spec (len - N.pos rem) ns) as (dpt & -> & Hd & _); [lia|]. cbn [obind].
        destruct (cdiv_spec dpt x) as (q & -> & Hq & _); [lia|]. cbn [obind].
        (* [q * x <= dpt <= dpt * ns <= len - rem] *)
        assert (Hqx : q * x <= len) by (clear - Hd Hq Hns; nia).
        assert (Hb : N.max (N.max q 1) 1 * x <= usize_max) by (clear - Hqx Hrl Hc; nia).
        rewrite (cmul_some _ _ Hb). eexists. split; [reflexivity|exact Hb].
    + (* RExact *) exists (Some x). split; [reflexivity|apply Hc].
  - (* length unknown *) unfold next_chunk_size_unknown_len. rewrite (csub_some _ _ H1). cbn [obind].
    destruct (_ <=? ns); [now exists None|]. eexists. split; [reflexivity|apply Hc].
Qed.

(** C11, settings part: with [Exact c] every chunk size handed to a worker is the
    resolved value; and that value is [c] clamped to the (known) input length. *)
Corollary next_chunk_size_exact r ns h x c : runner_wf r -> hm_wf r h ->
  r_chunk r = RExact x -> next_chunk_size r ns h = Some (Some c) -> c = x.
Proof.
  intros _ _ Hx Hn. apply next_chunk_size_shape in Hn as (_ & He & _). exact (He x Hx).
Qed.

Corollary runner_new_exact params task len avail c r :
  p_chunk params = CSExact c -> 1 <= c <= usize_max -> 1 <= avail <= 2 ^ 16 -> len_wf len ->
  runner_new params task len avail = Some r ->
  r_chunk r = RExact (match len with Some l => N.min c (N.max l 1) | None => c end).
Proof.
  intros Hp _ _ _ H. apply runner_new_inv in H as (_ & _ & H). rewrite Hp in H.
  exact (calc_chunk_size_kind _ _ _ _ _ H).
Qed.

(** ** parameters (C12, settings part) *)

Lemma is_sequential_iff p : is_sequential p = true <-> p_threads p = NTMax 1.
Proof. unfold is_sequential. now destruct (p_threads p) as [|[|[]]]. Qed.

Lemma nt_of_usize_spec n : nt_of_usize n = if n =? 0 then NTAuto else NTMax n.
Proof. reflexivity. Qed.
