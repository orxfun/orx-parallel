(** Termination over by-value iterator sources (C10, C14 for [ConIterOfIter] / [ConIterOfIterX]).

    The ticket / gate protocol can make a thread wait: a ticket holder spins until the gate shows
    its ticket (ordered) or is open at all (first come).  This file shows that waiting never turns
    into a deadlock and that every run completes:

    - [LInv]: in ordered mode, while the gate is not closed, every position between the frontier
      and the ticket counter is claimed by exactly one outstanding ticket (or by the rest of the
      current reader's chunk), and nothing outside is claimed.  Hence the ticket the gate is
      waiting for is held by somebody ([inot_done_enabled]).
    - every effective micro-step decreases the measure [iphi], so the argument of
      [Termination.Measure] applies: [irr_completes];
    - once the gate is closed a second measure, [jphi], no longer mentions the source:
      [ieffective_after_close], [jphi_bound].

    First what one micro-step does (to the claims, to the potentials, to what a worker holds), with
    no assumption on the runner; then, under the runner's hypotheses, the runs. *)
From OrxPar Require Import Base Machine Termination MachineIter MachineIterP.
Set Implicit Arguments.

Section TermIter.
Variable srclen : nat.
Variable known : bool.
Variable ordered : bool.
Variable stop : nat -> bool.
Variable panics : nat -> bool.
Variable dospawn : nat -> option nat -> bool.
Variable nextc : nat -> option nat -> option nat.
Variable maxt : nat.

Notation istep := (istep srclen known ordered stop panics dospawn nextc).
Notation irun := (irun srclen known ordered stop panics dospawn nextc).
Notation IGInv := (IGInv srclen stop panics maxt).
Notation iwstep_rel := (iwstep_rel srclen ordered stop panics).
Notation istep_cases := (istep_cases srclen known ordered stop panics dospawn nextc).

(** which positions a worker has claimed and not yet read: a ticket claims its whole chunk, a
    reader what is left of it *)
Definition in_span (x : nat) (w : iworker) : bool :=
  match iph w with
  | ITicket t => (t <=? x) && (x <? t + icsize w)
  | IReading t got => (t + got <=? x) && (x <? t + icsize w)
  | _ => false
  end.

(** how many workers of [l] claim position [x] *)
Definition cl (x : nat) (l : list iworker) : nat := length (filter (in_span x) l).

Lemma cl_app x a b : cl x (a ++ b) = cl x a + cl x b.
Proof. unfold cl. rewrite filter_app, app_length. reflexivity. Qed.

Lemma cl_mid x l1 w l2 : cl x (l1 ++ w :: l2) = cl x l1 + (if in_span x w then 1 else 0) + cl x l2.
Proof. rewrite cl_app. cbn. destruct (in_span x w); cbn; fold (cl x l2); lia. Qed.

(** exactly the positions of [f, c) are claimed, each by one worker *)
Definition claims (f c : nat) (l : list iworker) : Prop :=
  f <= c /\ forall x, cl x l = if (f <=? x) && (x <? c) then 1 else 0.

Definition LInv (s : isys) : Prop :=
  ordered = true -> igate s <> Closed -> claims (ifront s) (ictr s) (iws s).

(** [claims] and [in_span] are made of indicators of intervals [a, b), which add up *)
Notation ind a b x := (if (a <=? x) && (x <? b) then 1 else 0).

Lemma in_ival a b x : (a <=? x) && (x <? b) = true <-> a <= x < b.
Proof. now rewrite andb_true_iff, Nat.leb_le, Nat.ltb_lt. Qed.

Lemma ind_in a b x : a <= x < b -> ind a b x = 1.
Proof. intros H. now rewrite (proj2 (in_ival a b x) H). Qed.

Lemma ind_out a b x : ~ a <= x < b -> ind a b x = 0.
Proof. rewrite <- in_ival. now destruct (_ && _). Qed.

Lemma ind_split a b c x : a <= b <= c -> ind a c x = ind a b x + ind b c x.
Proof.
  intros H. destruct (Nat.leb_spec a x), (Nat.ltb_spec x b), (Nat.leb_spec b x), (Nat.ltb_spec x c); cbn; lia.
Qed.

Arguments ind_split : clear implicits.

(** an outstanding ticket is a claim, so it lies in [f, c); and the position at the frontier, when
    it is claimed at all, is claimed by the holder of ticket [f] or by a reader *)
Lemma claims_ticket f c l j w t : claims f c l -> nth_error l j = Some w -> iph w = ITicket t ->
  0 < icsize w -> f <= t < c.
Proof.
  intros [_ H] Hj E Hcs. apply in_ival. specialize (H t).
  assert (1 <= cl t l); [|destruct (_ && _); auto; lia].
  apply filter_witnessed with j w; auto. unfold in_span. rewrite E. apply in_ival. lia.
Qed.

Lemma claims_front f c l : claims f c l -> Forall (fun w => 0 < icsize w) l -> f < c ->
  exists j w, nth_error l j = Some w /\ (iph w = ITicket f \/ is_reading w = true).
Proof.
  intros C Hcs Hfc. destruct (@filter_witness _ (in_span f) l) as (j & w & Hj & Hw).
  { fold (cl f l). rewrite (proj2 C), ind_in; auto. }
  exists j, w. split; auto. unfold in_span, is_reading in *.
  destruct (iph w) as [|t| | | | |] eqn:E; auto.
  left. apply in_ival in Hw. destruct (@claims_ticket f c l j w t); auto; [|f_equal; lia].
  apply (Forall_In Hcs (nth_error_In _ _ Hj)).
Qed.

Lemma iwstep_claims c g f sk l1 w l2 c' g' f' sk' w' :
  ordered = true ->
  iwstep_rel c g f sk w c' g' f' sk' w' ->
  RD f w -> (forall n t got, g = Open n -> iph w <> IReading t got) ->
  (g <> Closed -> claims f c (l1 ++ w :: l2)) ->
  (g' <> Closed -> claims f' c' (l1 ++ w' :: l2)).
Proof.
  intros Hord W Hrd Hopen HL Hg'. unfold claims in *. setoid_rewrite cl_mid.
  setoid_rewrite cl_mid in HL.
  unfold in_span in *.
  destruct W as [E|t n E Eg Hn|t E Eg|t got E Hg Hfs|t got E Hg|b k p' sn' ab' E P|E|Hs];
    cbn [setph iph icsize] in *; rewrite ?E in *; auto.
  - (* IS_ticket: the new ticket claims [c, c + csize) *)
    destruct (HL Hg') as [Hfc HC]. split; [lia|]. intros x.
    rewrite (ind_split f c (c + icsize w) x), <- HC; lia.
  - (* IS_acquire: the reader starts where its ticket started *)
    destruct HL as [Hfc HC]; [congruence|]. rewrite Hord, Nat.add_0_r. auto.
  - (* IS_closed *) congruence.
  - (* IS_read: one position passes from the reader's claim to the frontier *)
    destruct (Hrd t got E) as [-> _]. destruct (HL Hg') as [Hfc HC]. rewrite Nat.add_succ_r.
    assert (Hlt : t + got < c).
    { destruct (Nat.lt_ge_cases (t + got) c); auto. specialize (HC (t + got)).
      rewrite ind_in, ind_out in HC; lia. }
    split; [lia|]. intros x. specialize (HC x).
    rewrite (ind_split (t + got) (S (t + got)) (t + icsize w) x), (ind_split (t + got) (S (t + got)) c x) in HC; lia.
  - (* IS_release: a full chunk was read and nothing of the claim is left; otherwise the gate
       closes *)
    destruct g as [n| |]; [now destruct (Hopen n t got eq_refl)| |easy].
    destruct (Nat.eqb_spec got (icsize w)) as [->|]; [|easy]. destruct HL as [Hfc HC]; [easy|].
    split; [lia|]. intros x. specialize (HC x). now rewrite ind_out in HC by lia.
  - (* IS_process *) destruct P as [|k0 _|[|k0] _]; [|destruct (panics b)|..]; auto.
Qed.

Lemma istep_LInv s t : IGInv s -> LInv s -> LInv (istep s t).
Proof.
  intros G L. destruct (istep_cases s t) as [new ph' cu Hn _ _|i|l1 w l2 c g f sk w' E W]; auto.
  - (* the spawner only appends fresh workers, which claim nothing *)
    unfold LInv.
    cbn [iws].
    intros Ho Hg. destruct (L Ho Hg) as [H1 H2]. split; auto. intros x. rewrite cl_app, <- H2.
    destruct Hn as [-> | ->]; cbn; lia.
  - destruct (worker_view G E) as (Hrd & _ & Hop).
    unfold LInv in *. rewrite E in L. intros Ho.
    eapply iwstep_claims; eauto.
Qed.

Lemma iinit_LInv c0 : LInv (iinit c0).
Proof. intros _ _. split; auto. Qed.

(** Reading an element raises the reader's potential by 4 and is paid from the 5 per position not
    yet read, so a released chunk of [k] elements has [7 + k] to spend on its processing; once the
    gate is closed a worker without elements has only its way out left (3 with an emptied chunk,
    2 ready, 1 with a ticket, 0 done); each thread not yet spawned is budgeted 9. *)
Definition ipot (g : gate) (w : iworker) : nat :=
  match iph w, g with
  | IReady, Closed => 2
  | IReady, _ => 7
  | ITicket _, Closed => 1
  | ITicket _, _ => 6
  | IReading _ got, _ => 5 + 4 * got
  | IHolding _ 0, Closed => 3
  | IHolding _ 0, _ => 8
  | IHolding _ (S k), _ => 8 + k
  | IFound, _ => 1
  | IDone, _ => 0
  | IDead, _ => 0
  end.

Definition isum (g : gate) (l : list iworker) : nat := sum_list (map (ipot g) l).

Definition iphi (s : isys) : nat :=
  9 * (maxt - length (iws s)) + rank (isph s) + isum (igate s) (iws s) + 5 * (srclen - ifront s).

Lemma iphi_init c0 : iphi (iinit c0) = 9 * maxt + 2 + 5 * srclen.
Proof. unfold iphi. cbn. now rewrite !Nat.sub_0_r, Nat.add_0_r. Qed.

(** a gate never reopens: the potential of the waiting workers can only go down *)
Lemma ipot_mono g' g w : (g = Closed -> g' = Closed) -> ipot g' w <= ipot g w.
Proof.
  intros H. unfold ipot. destruct (iph w) as [| | |b [|k]| | |], g, g'; try lia;
    now specialize (H eq_refl).
Qed.

Lemma isum_mono g' g l : (g = Closed -> g' = Closed) -> isum g' l <= isum g l.
Proof. intros H. apply sum_list_map_le, Forall_forall. intros w _. now apply ipot_mono. Qed.

Lemma isum_mid g l1 w l2 : isum g (l1 ++ w :: l2) = isum g l1 + ipot g w + isum g l2.
Proof. unfold isum. rewrite map_app, sum_list_app. cbn. unfold sum_list. lia. Qed.

(** a pick is enabled when its step is not a stutter *)
Definition ienabled (s : isys) (t : nat) : bool :=
  match t with
  | 0 => match isph s with SpDone => false | _ => true end
  | S i => match nth_error (iws s) i with
           | Some w =>
               match iph w with
               | IDone | IDead => false
               | ITicket tk => match igate s with
                               | Open n => if ordered then n =? tk else true
                               | Busy => false
                               | Closed => true
                               end
               | _ => true
               end
           | None => false
           end
  end.

Lemma ienabled_worker s i w : nth_error (iws s) i = Some w ->
  ienabled s (S i) = iw_enabled ordered (igate s) w.
Proof. intros E. cbn. now rewrite E. Qed.

Lemma idisabled_stutters s t : ienabled s t = false -> istep s t = s.
Proof.
  destruct t as [|i]; cbn.
  - unfold MachineIter.isstep. now destruct (isph s).
  - destruct (nth_error (iws s) i) as [w|] eqn:En; [|reflexivity]. intros He.
    (* a disabled worker is finished, or waits at a gate that does not let it in: its step returns
       its arguments *)
    assert (E : MachineIter.iwstep srclen ordered stop panics (ictr s) (igate s) (ifront s)
                  (iskipped s) w = (ictr s, igate s, ifront s, iskipped s, w)).
    { unfold MachineIter.iwstep. destruct (iph w); try discriminate He; try reflexivity.
      destruct (igate s); try discriminate He; try reflexivity.
      destruct ordered; [now rewrite He|discriminate He]. }
    rewrite E, (upd_same _ _ En). now destruct s.
Qed.

Lemma iwstep_decreases c g f sk w c' g' f' sk' w' :
  iwstep_rel c g f sk w c' g' f' sk' w' ->
  RD f w -> 0 < icsize w -> (forall n t got, g = Open n -> iph w <> IReading t got) ->
  iw_enabled ordered g w = true ->
  ipot g' w' + 5 * (srclen - f') < ipot g w + 5 * (srclen - f).
Proof.
  intros W Hrd Hcs Hopen Hen. unfold ipot.
  destruct W as [E|t n E Eg Hn|t E Eg|t got E Hg' Hfs|t got E Hg'|b k p' sn' ab' E P|E|Hs];
    [..|congruence]; cbn [setph iph]; rewrite E.
  - (* IS_ticket *) destruct g; lia.
  - (* IS_acquire *) subst g. lia.
  - (* IS_closed *) subst g. lia.
  - (* IS_read: 4 more for the reader, 5 less for the source *) lia.
  - (* IS_release: the gate opens again only after a full chunk *)
    destruct g as [n| |].
    + now destruct (Hopen n t got eq_refl).
    + destruct (Nat.eqb_spec got (icsize w)); destruct got; lia.
    + destruct got; lia.
  - (* IS_process *)
    destruct P as [|k0 _|[|[|k0]] _]; [|destruct (panics b)|..]; destruct g; cbn; lia.
  - (* IS_skip *) lia.
Qed.

Lemma iall_doneb_spec s : iall_doneb s = true <-> iall_done s.
Proof.
  unfold iall_doneb, iall_done, ifinished. destruct (isph s); try easy.
  rewrite forallb_forall. split.
  - intros H. split; [reflexivity|]. intros w Hw. specialize (H w Hw).
    destruct (iph w); auto; discriminate.
  - intros [_ H] w Hw. now destruct (H w Hw) as [-> | ->].
Qed.

(** After the early-exit signal (or exhaustion) the gate is closed for good, and what is left
    to do no longer depends on the source: the reader, if any, finishes its chunk; everybody
    else processes what it holds and leaves.  A read costs the reader 1, and when it releases
    [got <= cs] elements it must still afford [7 + got] for processing them:
    [5 + 6 * cs - got > 7 + got] for every [1 <= got <= cs] (any factor from 5 up would do). *)
Definition jpot (w : iworker) : nat :=
  match iph w with
  | IReady => 2
  | ITicket _ => 1
  | IReading _ got => 5 + 6 * icsize w - got
  | IHolding _ 0 => 3
  | IHolding _ (S k) => 8 + k
  | IFound => 1
  | IDone => 0
  | IDead => 0
  end.

Definition jsum (l : list iworker) : nat := sum_list (map jpot l).

Definition jphi (s : isys) : nat := 9 * (maxt - length (iws s)) + rank (isph s) + jsum (iws s).

Lemma jsum_mid l1 w l2 : jsum (l1 ++ w :: l2) = jsum l1 + jpot w + jsum l2.
Proof. unfold jsum. rewrite map_app, sum_list_app. cbn. unfold sum_list. lia. Qed.

Lemma iwstep_closed_decreases c f sk w c' g' f' sk' w' :
  iwstep_rel c Closed f sk w c' g' f' sk' w' -> RD f w -> iw_enabled ordered Closed w = true ->
  jpot w' < jpot w.
Proof.
  intros W Hrd Hen. unfold jpot.
  destruct W as [E|t n E Eg Hn|t E Eg|t got E Hg' Hfs|t got E Hg'|b k p' sn' ab' E P|E|Hs];
    [..|congruence]; cbn [setph iph icsize]; rewrite E; try easy; try lia.
  - (* IS_release *) destruct (Hrd t got E) as [_ Hgot]. destruct got; lia.
  - (* IS_process *) destruct P as [|k0 _|[|[|k0]] _]; [|destruct (panics b)|..]; cbn; lia.
Qed.

(** a worker never holds more than its chunk size *)
Definition HB (w : iworker) : Prop := forall b k, iph w = IHolding b k -> k <= icsize w.

Lemma iwstep_HB c g f sk w c' g' f' sk' w' :
  iwstep_rel c g f sk w c' g' f' sk' w' -> RD f w -> HB w -> HB w'.
Proof.
  intros W Hrd Hb. unfold HB.
  destruct W as [E|t n E Eg Hn|t E Eg|t got E Hg' Hfs|t got E Hg'|b k p' sn' ab' E P|E|Hs];
    cbn [setph iph icsize]; try easy.
  - (* IS_release *) intros b k [= <- <-]. now destruct (Hrd t got E).
  - (* IS_process *) specialize (Hb b k E). destruct P as [|k0 _|[|k0] _]; [|destruct (panics b)|..]; try easy.
    intros b' k' [= _ <-]. lia.
Qed.

Lemma istep_HB s t : IGInv s -> Forall HB (iws s) -> Forall HB (iws (istep s t)).
Proof.
  intros G H. destruct (istep_cases s t) as [new ph' cu Hn _ _|i|l1 w l2 c g f sk w' E W]; auto.
  - apply Forall_app.
    split; auto.
    destruct Hn as [-> | ->]; repeat constructor. easy.
  - destruct (worker_view G E) as (Hrd & _). rewrite E in H.
    pose proof (iwstep_HB W Hrd (Forall_elt _ _ _ H)). eauto using Forall_mid_swap.
Qed.

(** the early-exit signal closes the gate, for good *)
Definition SkInv (s : isys) : Prop := iskipped s = true -> igate s = Closed.

Lemma istep_SkInv s t : SkInv s -> SkInv (istep s t).
Proof.
  unfold SkInv. intros H. destruct (istep_cases s t) as [|i|l1 w l2 c g f sk w' E W]; auto.
  cbn. pose proof (iwstep_gate_closed W). destruct W; auto.
Qed.

Lemma irun_SkInv s sched : SkInv s -> SkInv (irun s sched).
Proof. apply run_inv. apply istep_SkInv. Qed.

Hypothesis dospawn_bound : forall n h, dospawn n h = true -> n + 2 <= maxt.
Hypothesis nextc_pos : forall n h c, nextc n h = Some c -> 0 < c.
Hypothesis maxt_pos : 1 <= maxt.

Lemma runG s l : IGInv s -> IGInv (irun s l).
Proof. apply irun_IGInv; auto. Qed.

Lemma irun_LInv s sched : IGInv s -> LInv s -> LInv (irun s sched).
Proof. apply irun_inv; auto. apply istep_LInv. Qed.

Theorem ienabled_decreases s t : IGInv s -> ienabled s t = true -> iphi (istep s t) < iphi s.
Proof using dospawn_bound maxt_pos. (* neither is needed ([I_sp] bounds the workers); the statement
                                      carries them all the same *)
  intros G He. destruct (istep_cases s t) as [new ph' cu Hn _ M|i En|l1 w l2 c g f sk w' E W].
  - (* the spawner: a spawn releases 9, of which the new worker takes at most 7 and the rank at
       most 1; without a spawn the rank falls *)
    pose proof (I_sp G) as Gs.
    cbn in He. apply sp_move_rank in M; [|now destruct (isph s)].
    unfold iphi. cbn [igate ifront iws isph]. rewrite app_length.
    assert (isum (igate s) (iws s ++ new) <= isum (igate s) (iws s) + 7 * length new /\ length new <= 1).
    { destruct Hn as [-> | ->]; [rewrite app_nil_r; cbn; lia|]. rewrite (isum_mid _ _ _ []).
      cbn. destruct (igate s); lia. }
    destruct (isph s); lia.
  - cbn in He. now rewrite En in He.
  - destruct (worker_view G E) as (Hrd & Hcs & Hop).
    rewrite (ienabled_worker s (length l1) (w := w)) in He by (rewrite E; apply nth_error_app_here).
    pose proof (iwstep_decreases W Hrd Hcs Hop He) as Hd. pose proof (iwstep_gate_closed W) as Hg.
    unfold iphi; cbn [igate ifront iws isph]. rewrite E, !isum_mid, !app_length. cbn [length].
    pose proof (isum_mono l1 Hg). pose proof (isum_mono l2 Hg). lia.
Qed.

Lemma iphi_measure : measure istep ienabled iphi IGInv.
Proof. split; [apply istep_IGInv|apply idisabled_stutters|apply ienabled_decreases]; auto. Qed.

(** [Termination.effective_of istep ienabled], written out *)
Fixpoint ieffective (s : isys) (sched : list nat) : nat :=
  match sched with
  | [] => 0
  | t :: r => (if ienabled s t then 1 else 0) + ieffective (istep s t) r
  end.

Theorem ieffective_le_iphi s sched : IGInv s -> ieffective s sched <= iphi s.
Proof. apply (effective_le_measure iphi_measure). Qed.

Theorem inot_done_enabled s : IGInv s -> LInv s -> iall_doneb s = false ->
  exists t, ienabled s t = true /\ t <= length (iws s).
Proof using maxt_pos. (* not needed by the proof; the statement carries it all the same *)
  intros G L. unfold iall_doneb.
  destruct (isph s) eqn:Ep; try (intros _; exists 0; cbn; rewrite Ep; split; [reflexivity|lia]).
  intros H. apply forallb_false in H as (i & w & Hi & Hw).
  enough (exists j x, nth_error (iws s) j = Some x /\ iw_enabled ordered (igate s) x = true) as (j & x & Hj & Hx).
  { exists (S j). rewrite (ienabled_worker s j Hj). apply nth_error_Some_lt in Hj. auto. }
  (* the worker that is not finished can move unless it waits for the gate *)
  unfold iw_enabled.
  destruct (iph w) as [|tk| | | | |] eqn:Ew; try discriminate Hw; try (exists i, w; now rewrite Ew).
  destruct (igate s) as [n| |] eqn:Eg; [destruct ordered eqn:Eo|..];
    try (exists i, w; now rewrite Ew).
  - (* open at the frontier, in ticket order: [w]'s ticket is outstanding, so the frontier is
       claimed, and not by a reader *)
    destruct (I_open G Eg) as [-> Hr].
    assert (C : claims (ifront s) (ictr s) (iws s)) by (apply L; congruence).
    assert (Hcs : Forall (fun w => 0 < icsize w) (iws s)) by (eapply Forall_impl; [|apply (I_w G)]; apply IW_cs).
    destruct (@claims_ticket _ _ _ i w tk C Hi Ew (Forall_In Hcs (nth_error_In _ _ Hi))).
    destruct (claims_front C Hcs) as (j & x & Hj & [Ex|Ex]); [lia| |].
    + exists j, x. now rewrite Ex, Nat.eqb_refl.
    + pose proof (filter_witnessed is_reading _ _ Hj Ex). fold (readers (iws s)) in *. lia.
  - (* busy: the reader can move *)
    pose proof (I_busy G Eg) as Hr.
    destruct (@filter_witness _ is_reading (iws s)) as (j & x & Hj & Hx);
      [fold (readers (iws s)); lia|].
    exists j, x. unfold is_reading in Hx. now destruct (iph x).
Qed.

(** after any reachable state, [iphi] rounds of round robin over all possible threads complete
    the run: no deadlock on the handle, no livelock *)
Theorem irr_completes s n : IGInv s -> LInv s -> iphi s <= n ->
  iall_doneb (irun s (round_robin maxt n)) = true.
Proof.
  intros G L. apply (round_robin_completes (measure_and iphi_measure istep_LInv)); auto.
  - intros s0 [G0 L0] E. destruct (inot_done_enabled G0 L0 E) as (t & He & Ht). exists t.
    split; auto.
    pose proof (I_sp G0). destruct (isph s0); lia.
  - intros s0 t E. apply iall_doneb_spec in E as [E1 E2].
    destruct t as [|i]; cbn; [now rewrite E1|].
    destruct (nth_error (iws s0) i) as [w|] eqn:En; auto.
    now destruct (E2 w (nth_error_In _ _ En)) as [-> | ->].
Qed.

Lemma jphi_measure : measure istep ienabled jphi (fun s => IGInv s /\ igate s = Closed).
Proof.
  split; [|apply idisabled_stutters|]; intros s t [G Hc].
  - split; [now apply istep_IGInv|].
    destruct (istep_cases s t) as [|i En|l1 w l2 c g f sk w' E W]; auto.
    now apply (iwstep_gate_closed W).
  - intros He. destruct (istep_cases s t) as [new ph' cu Hn _ M|i En|l1 w l2 c g f sk w' E W].
    + pose proof (I_sp G) as Gs.
      cbn in He. apply sp_move_rank in M; [|now destruct (isph s)].
      unfold jphi. cbn [iws isph]. rewrite app_length.
      assert (jsum (iws s ++ new) = jsum (iws s) + 2 * length new /\ length new <= 1).
      { destruct Hn as [-> | ->]; [rewrite app_nil_r; cbn; lia|]. rewrite (jsum_mid _ _ []). cbn.
        lia. }
      destruct (isph s); lia.
    + cbn in He. now rewrite En in He.
    + destruct (worker_view G E) as (Hrd & _).
      rewrite (ienabled_worker s (length l1) (w := w)) in He by (rewrite E; apply nth_error_app_here).
      rewrite Hc in W, He.
      unfold jphi; cbn [iws isph]. rewrite E, !jsum_mid, !app_length. cbn [length].
      pose proof (iwstep_closed_decreases W Hrd He). lia.
Qed.

(** C10 over iterator sources: once the gate is closed, no schedule contains more than [jphi]
    effective steps -- a bound in the number of threads and their chunk sizes only *)
Theorem ieffective_after_close s sched : IGInv s -> igate s = Closed ->
  ieffective s sched + jphi (irun s sched) <= jphi s.
Proof. intros G Hc. now apply (effective_le jphi_measure). Qed.

Lemma ieffective_le_jphi s sched : IGInv s -> igate s = Closed -> ieffective s sched <= jphi s.
Proof. intros G Hc. now apply (effective_le_measure jphi_measure). Qed.

Lemma irun_HB s sched : IGInv s -> Forall HB (iws s) -> Forall HB (iws (irun s sched)).
Proof. apply irun_inv with (P := fun s => Forall HB (iws s)); auto. apply istep_HB. Qed.

(** the bound mentions the number of threads and their chunk sizes, not the source *)
Theorem jphi_bound s : IGInv s -> Forall HB (iws s) ->
  jphi s <= 9 * maxt + 3 + sum_list (map (fun w => 6 * icsize w + 8) (iws s)).
Proof using maxt_pos. (* neither it nor [IGInv s] is needed; the statement carries them all the same *)
  intros _ Hb. unfold jphi.
  assert (jsum (iws s) <= sum_list (map (fun w => 6 * icsize w + 8) (iws s))).
  { apply sum_list_map_le. eapply Forall_impl; [|exact Hb]. intros w Hw. unfold jpot, HB in *.
    destruct (iph w) as [| |t got|b [|k]| | |]; try lia. specialize (Hw b (S k) eq_refl).
    lia. }
  assert (rank (isph s) <= 3) by (destruct (isph s); cbn; lia).
  lia.
Qed.

End TermIter.
