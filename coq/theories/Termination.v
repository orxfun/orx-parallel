(** Termination and early exit (C10).

    - After [skip_to_end] no pull succeeds, and the work that remains is bounded by what the
      workers already hold -- independent of how much input remains ([no_pull_after_signal],
      [phi_after_signal]).
    - Every micro-step either stutters or strictly decreases a measure [phi]; hence no
      schedule contains more than [phi] effective steps, no reachable state is stuck, and after
      any schedule prefix a round-robin continuation completes the run ([rr_completes]).
      After the signal the measure does not depend on the length of the source.

    The argument from a decreasing measure is the same for both machines and is made once, in
    section [Measure]. *)
From OrxPar Require Import Base Machine MachineP.
Set Implicit Arguments.

Section Measure.
Variables (St : Type) (step : St -> nat -> St) (enabled : St -> nat -> bool) (phi : St -> nat).

Fixpoint effective_of (s : St) (sched : list nat) : nat :=
  match sched with
  | [] => 0
  | t :: r => (if enabled s t then 1 else 0) + effective_of (step s t) r
  end.

Record measure (Inv : St -> Prop) : Prop := {
  M_inv : forall s t, Inv s -> Inv (step s t);
  M_stutter : forall s t, enabled s t = false -> step s t = s;
  M_decr : forall s t, Inv s -> enabled s t = true -> phi (step s t) < phi s
}.

Lemma measure_and [Inv J : St -> Prop] :
  measure Inv -> (forall s t, Inv s -> J s -> J (step s t)) -> measure (fun s => Inv s /\ J s).
Proof.
  intros [H1 H2 H3] HJ. split; auto.
  - intros s t [I Hj]. auto.
  - intros s t [I _]. auto.
Qed.

Variable Inv : St -> Prop.
Hypothesis M : measure Inv.

Lemma effective_le sched : forall s, Inv s -> effective_of s sched + phi (fold_left step sched s) <= phi s.
Proof.
  induction sched as [|t r IH]; intros s I; cbn; [lia|].
  specialize (IH _ (M_inv M s t I)). destruct (enabled s t) eqn:E.
  - pose proof (M_decr M I E). lia.
  - rewrite (M_stutter M E) in *. lia.
Qed.

Lemma effective_le_measure sched s : Inv s -> effective_of s sched <= phi s.
Proof. intros I. pose proof (effective_le sched I). lia. Qed.

Lemma progress l : forall s t, Inv s -> In t l -> enabled s t = true -> phi (fold_left step l s) < phi s.
Proof.
  induction l as [|x r IH]; intros s t I Hin He; [destruct Hin|]. cbn.
  destruct (enabled s x) eqn:Ex.
  - pose proof (M_decr M I Ex). pose proof (effective_le r (M_inv M s x I)). lia.
  - rewrite (M_stutter M Ex). destruct Hin as [->|Hin]; [congruence|eauto].
Qed.

Variables (done : St -> bool) (m : nat).
Hypothesis some_enabled :
  forall s, Inv s -> done s = false -> exists t, enabled s t = true /\ t <= m.
Hypothesis done_disabled : forall s t, done s = true -> enabled s t = false.

Lemma fair_completes rounds : forall s, Inv s ->
  Forall (fun r => forall t, t <= m -> In t r) rounds -> phi s <= length rounds ->
  done (fold_left step (concat rounds) s) = true.
Proof.
  induction rounds as [|r rounds IH]; intros s I Hf Hn; cbn [concat fold_left length] in *;
    destruct (done s) eqn:E; auto.
  - (* no round left, not done: an enabled pick would decrease [phi s <= 0] *)
    destruct (some_enabled I E) as (t & He & _). pose proof (M_decr M I He). lia.
  - (* already complete: everything stutters *)
    rewrite (run_inv step (fun x => x = s)); auto. intros ? t ->. apply (M_stutter M), done_disabled, E.
  - (* not done: the round contains an enabled pick, so it decreases [phi] *)
    apply Forall_cons_iff in Hf as [Hr Hf']. rewrite fold_left_app.
    destruct (some_enabled I E) as (t & He & Ht). pose proof (progress r I (Hr t Ht) He).
    apply IH; auto; [|lia]. apply run_inv; auto. apply (M_inv M).
Qed.

Lemma round_robin_completes n s : Inv s -> phi s <= n ->
  done (fold_left step (round_robin m n) s) = true.
Proof.
  intros I Hn. replace (round_robin m n) with (concat (repeat (seq 0 (S m)) n))
    by (clear Hn; induction n; cbn [repeat concat round_robin]; congruence).
  apply fair_completes; auto; [|now rewrite repeat_length].
  apply Forall_forall. intros r Hr t Ht. apply repeat_spec in Hr as ->. apply in_seq. lia.
Qed.

End Measure.

Section Termination.
Variable len : nat.
Variable known : bool.
Variable stop : nat -> bool.
Variable panics : nat -> bool.
Variable dospawn : nat -> option nat -> bool.
Variable nextc : nat -> option nat -> option nat.

Notation wstep := (wstep len stop panics).
Notation step := (step len known stop panics dospawn nextc).
Notation run := (run len known stop panics dospawn nextc).
Notation step_cases := (step_cases len known stop panics dospawn nextc).

(** ** the early-exit signal closes the source *)
Record SInv (s : sys) : Prop := {
  S_sk : skipped s = true -> len <= ctr s;
  S_pend : Forall (fun w => length (pending w) <= csize w) (ws s)
}.

Lemma wstep_SInv c f sk w c' f' sk' w' :
  wstep_rel len stop panics c f sk w c' f' sk' w' ->
  (sk = true -> len <= c) -> length (pending w) <= csize w ->
  (sk' = true -> len <= c') /\ length (pending w') <= csize w'.
Proof.
  intros W Hsk Hp. unfold pending in Hp |- *.
  destruct W as [Hr Hl|Hr Hl|b k p' sn' ab' E P|Hf|Hf]; cbn [ph csize]; rewrite ?seq_length.
  - (* S_pull *) split; [intros Es; specialize (Hsk Es)|]; lia.
  - (* S_end *) split; [intros Es; specialize (Hsk Es)|cbn]; lia.
  - (* S_process: what is pending does not grow *)
    rewrite E, seq_length in Hp. split; [exact Hsk|].
    destruct P as [|k0 _|[|k0] _]; [|destruct (panics b)|..]; cbn; rewrite ?seq_length; lia.
  - (* S_skip *) split; [|cbn]; lia.
  - (* S_idle *) auto.
Qed.

Lemma step_SInv s t : SInv s -> SInv (step s t).
Proof.
  intros [Hs Hp].
  destruct (step_cases s t) as [new ph' cu Hn _ _|i|l1 w l2 c f sk w' E W].
  - constructor; auto. apply Forall_app. split; auto.
    destruct Hn as [-> | ->]; repeat constructor; cbn; lia.
  - now constructor.
  - rewrite E in Hp. destruct (wstep_SInv W Hs (Forall_elt _ _ _ Hp)).
    constructor; auto. now apply Forall_mid_swap with w.
Qed.

Lemma init_SInv c0 : SInv (init c0).
Proof. constructor; [discriminate|constructor]. Qed.

Lemma run_SInv s sched : SInv s -> SInv (run s sched).
Proof. apply run_inv. apply step_SInv. Qed.

(** the steps the spawner still takes if every spawn of the loop is refused: the lag decision, the
    refusal, the final spawn *)
Definition rank (p : sphase) : nat :=
  match p with SpLoop _ => 2 | SpLag => 3 | SpFinal => 1 | SpDone => 0 end.

Lemma sp_move_rank n p k p' : sp_move dospawn n p k p' -> p <> SpDone -> rank p' < rank p + 2 * k.
Proof. intros [[|[|j]] h _| |p0 [-> | ->]| |]; cbn; lia || easy. Qed.

Variable maxt : nat.

Notation GInv := (GInv len stop panics maxt).

(** A worker owes 2 per element it holds; a pull of [k >= 1] positions (potential 2 to [2k + 3])
    is paid from [rem], 4 per position; each thread not yet spawned is budgeted 5. *)
Definition wpot (w : worker) : nat :=
  match ph w with
  | Ready => 2
  | Holding _ k => 2 * k + 3
  | Found => 1
  | Done => 0
  | Dead => 0
  end.
Definition wsum (l : list worker) : nat := sum_list (map wpot l).
Definition rem (s : sys) : nat := if skipped s then 0 else 4 * (len - front s).
Definition phi (s : sys) : nat := 5 * (maxt - length (ws s)) + rank (sph s) + wsum (ws s) + rem s.

(** a pick is enabled when the thread exists and has something left to do *)
Definition enabled (s : sys) (t : nat) : bool :=
  match t with
  | 0 => match sph s with SpDone => false | _ => true end
  | S i => match nth_error (ws s) i with
           | Some w => match ph w with Done | Dead => false | _ => true end
           | None => false
           end
  end.

Lemma phi_init c0 : phi (init c0) = 5 * maxt + 2 + 4 * len.
Proof. unfold phi, rem. cbn. now rewrite !Nat.sub_0_r, Nat.add_0_r. Qed.

Lemma wsum_app l1 l2 : wsum (l1 ++ l2) = wsum l1 + wsum l2.
Proof. unfold wsum. rewrite map_app. apply sum_list_app. Qed.

Lemma disabled_stutters s t : enabled s t = false -> step s t = s.
Proof.
  destruct t as [|i]; cbn.
  - unfold Machine.sstep. now destruct (sph s).
  - destruct (nth_error (ws s) i) as [w|] eqn:En; [|reflexivity].
    unfold Machine.wstep. destruct (ph w); try discriminate; rewrite (upd_same _ _ En);
      now destruct s.
Qed.

Lemma not_done_enabled s : GInv s -> all_doneb s = false -> exists t, enabled s t = true /\ t <= maxt.
Proof.
  intros G. pose proof (G_sp G) as Gs. unfold all_doneb.
  destruct (sph s) eqn:Ep; try (intros _; exists 0; cbn; rewrite Ep; split; [reflexivity|lia]).
  intros H. apply forallb_false in H as (i & w & Hi & Hw).
  exists (S i). cbn. rewrite Hi. split; [now destruct (ph w)|]. apply nth_error_Some_lt in Hi. lia.
Qed.

Lemma all_doneb_spec s : all_doneb s = true <-> all_done s.
Proof.
  unfold all_doneb, all_done, finished. destruct (sph s); try easy.
  rewrite forallb_forall. split.
  - intros H. split; [reflexivity|]. intros w Hw. specialize (H w Hw).
    destruct (ph w); auto; discriminate.
  - intros [_ H] w Hw. now destruct (H w Hw) as [-> | ->].
Qed.

Hypothesis dospawn_bound : forall n h, dospawn n h = true -> n + 2 <= maxt.
Hypothesis nextc_pos : forall n h c, nextc n h = Some c -> 0 < c.
Hypothesis maxt_pos : 1 <= maxt.

(** C10 (a): once the signal is out, a pull never succeeds *)
Theorem no_pull_after_signal s i w c' f' sk' w' :
  SInv s -> skipped s = true -> nth_error (ws s) i = Some w -> ph w = Ready ->
  wstep (ctr s) (front s) (skipped s) w = (c', f', sk', w') -> ph w' = Done /\ f' = front s.
Proof using maxt_pos. (* not needed by the proof; the statement carries it all the same *)
  intros [Hs _] Hsk _ Hr. unfold Machine.wstep. rewrite Hr.
  specialize (Hs Hsk). destruct (Nat.ltb_spec (ctr s) len); [lia|].
  intros [= <- <- <- <-]. auto.
Qed.

Lemma enabled_decreases s t : GInv s -> SInv s -> enabled s t = true -> phi (step s t) < phi s.
Proof using dospawn_bound maxt_pos. (* neither is needed ([G_sp] bounds the workers); the statement
                                      carries them all the same *)
  intros G HS He. pose proof (G_sp G) as Gs.
  destruct (step_cases s t) as [new ph' cu Hn _ M|i En|l1 w l2 c f sk w' E W].
  - (* spawner: a spawn releases 5, of which the new worker takes 2 and the rank at most 1;
       without a spawn the rank falls *)
    cbn in He. apply sp_move_rank in M; [|now destruct (sph s)].
    unfold phi, rem. cbn [ws sph skipped front]. rewrite app_length, wsum_app.
    assert (wsum new = 2 * length new /\ length new <= 1) by (destruct Hn as [-> | ->]; cbn; lia).
    destruct (sph s); lia.
  - cbn in He. now rewrite En in He.
  - (* worker: its potential and what is left of the source *)
    cbn in He. rewrite E, nth_error_app_here in He.
    enough (wpot w' + (if sk then 0 else 4 * (len - f)) < wpot w + (if skipped s then 0 else 4 * (len - front s))).
    { unfold phi, rem; cbn [ws sph skipped front]. rewrite E, !wsum_app, !app_length.
      cbn [wsum map sum_list fold_right length]. lia. }
    pose proof (G_w G) as Hcs. rewrite E in Hcs.
    apply Forall_elt, W_cs in Hcs.
    unfold wpot. destruct W as [Hp Hl|Hp Hl|b k p' sn' ab' Hp P|Hp|[Hp|Hp]]; cbn [ph];
      rewrite ?Hp in *;
      try discriminate; try lia.
    + (* S_pull: it succeeds only before the signal, and takes at least one position *)
      destruct (skipped s) eqn:Hsk; [pose proof (S_sk HS Hsk); lia|]. rewrite <- (G_ctr G Hl). lia.
    + (* S_process *) destruct P as [|k0 _|k0 _]; [|destruct (panics b)|destruct k0]; lia.
Qed.

Lemma phi_measure : measure step enabled phi (fun s => GInv s /\ SInv s).
Proof.
  split.
  - intros s t [G HS]. split; [now apply step_GInv|now apply step_SInv].
  - apply disabled_stutters.
  - intros s t [G HS]. now apply enabled_decreases.
Qed.

(** [effective_of step enabled], written out: the two are convertible, which is how the theorems
    of [Measure] apply *)
Fixpoint effective (s : sys) (sched : list nat) : nat :=
  match sched with
  | [] => 0
  | t :: r => (if enabled s t then 1 else 0) + effective (step s t) r
  end.

Theorem effective_bounded s sched : GInv s -> SInv s -> effective s sched + phi (run s sched) <= phi s.
Proof. intros G HS. now apply (effective_le phi_measure). Qed.

Lemma effective_le_phi s sched : GInv s -> SInv s -> effective s sched <= phi s.
Proof. intros G HS. now apply (effective_le_measure phi_measure). Qed.

(** after any reachable state, [phi] rounds of round robin over all possible threads complete
    the run *)
Theorem rr_completes s n : GInv s -> SInv s -> phi s <= n ->
  all_doneb (run s (round_robin maxt n)) = true.
Proof.
  intros G HS. apply (round_robin_completes phi_measure); auto.
  - intros s0 [G0 _]. now apply not_done_enabled.
  - intros s0 t E. apply all_doneb_spec in E as [E1 E2]. destruct t as [|i]; cbn; [now rewrite E1|].
    destruct (nth_error (ws s0) i) as [w|] eqn:En; auto.
    now destruct (E2 w (nth_error_In _ _ En)) as [-> | ->].
Qed.

(** after the signal the measure does not mention the length of the source *)
Theorem phi_after_signal s : SInv s -> skipped s = true ->
  phi s <= 5 * maxt + 3 + sum_list (map (fun w => 2 * csize w + 3) (ws s)).
Proof using maxt_pos. (* not needed by the proof; the statement carries it all the same *)
  intros [_ Hp] Hsk. unfold phi, rem. rewrite Hsk.
  assert (wsum (ws s) <= sum_list (map (fun w => 2 * csize w + 3) (ws s))).
  { apply sum_list_map_le. eapply Forall_impl; [|exact Hp]. intros w Hw.
    unfold wpot, pending in *. destruct (ph w); rewrite ?seq_length in Hw; lia. }
  assert (rank (sph s) <= 3) by (destruct (sph s); cbn; lia).
  lia.
Qed.

End Termination.
