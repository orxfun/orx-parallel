(** Kernels: what the sixteen kernels of src/core compute, as functions of what each worker
    processed (its [seen] list, in order, and its pulled chunks) and of the per-position trace
    [pe i] (calls and yields the composed closures produce for source position [i]).

    Workers are in spawn order, which is the order in which [Runner::reduce] / [Runner::run_map]
    join them and combine their results on the calling thread. *)
From OrxPar Require Import Base Spec Machine.
Set Implicit Arguments.

Section Kernels.
Variable V : Type.
Variable pe : nat -> list (event V).

Definition vals (i : nat) : list V := yields (pe i).

(** core/utils.rs *)
Definition maybe_reduce (op : V -> V -> V) (a b : option V) : option V :=
  match a, b with
  | None, None => None
  | None, Some y => Some y
  | Some x, None => Some x
  | Some x, Some y => Some (op x y)
  end.

(** ** per-worker results *)

(** [*_cnt] task *)
Definition w_cnt (w : worker) : nat := length (flat_map vals (seen w)).

(** [*_col_x] task: the worker's own Vec *)
Definition w_colx (w : worker) : list V := flat_map vals (seen w).

(** [*_red] task.  Chunk size 1: one flat [Iterator::reduce] over everything the worker
    pulls.  Otherwise: per-chunk reduce, [maybe_reduce]d into the accumulator. *)
Definition chunk_positions (w : worker) : list (list nat) :=
  map (fun p => seq (fst p) (snd p)) (pulls w).
Definition w_red (op : V -> V -> V) (w : worker) : option V :=
  match csize w with
  | 1 => reduce_list op (flat_map vals (seen w))
  | _ => fold_left (fun acc ch => maybe_reduce op acc (reduce_list op (flat_map vals ch)))
                   (chunk_positions w) None
  end.

(** [*_fil_col] task: the worker's Vec of (key, value), key = (source position, position
    inside the produced iterator) -- the second component is 0 for map/filter_map pipelines *)
Fixpoint keyed_from (i j : nat) (l : list V) : list ((nat * nat) * V) :=
  match l with [] => [] | v :: r => ((i, j), v) :: keyed_from i (S j) r end.
Definition keyed (i : nat) : list ((nat * nat) * V) := keyed_from i 0 (vals i).
Definition w_col (w : worker) : list ((nat * nat) * V) := flat_map keyed (seen w).

(** [*_find] task: first match with its source position *)
Fixpoint find_in (l : list nat) : option (nat * V) :=
  match l with
  | [] => None
  | i :: r => match first_yield (pe i) with Some v => Some (i, v) | None => find_in r end
  end.
Definition w_find (w : worker) : option (nat * V) := find_in (seen w).

(** ** combination on the calling thread *)

(** [Runner::reduce]: [threads.map(join).reduce(reduce)] *)
Definition combine {A} (f : A -> A -> A) (l : list A) : option A :=
  match l with [] => None | x :: r => Some (fold_left f r x) end.

Definition res_cnt (wl : list worker) : nat :=
  match combine Nat.add (map w_cnt wl) with Some n => n | None => 0 end.

Definition res_red (op : V -> V -> V) (wl : list worker) : option V :=
  match combine (maybe_reduce op) (map (w_red op) wl) with Some o => o | None => None end.

Definition min_by_idx (a b : option (nat * V)) : option (nat * V) :=
  match a, b with
  | None, None => None
  | None, Some y => Some y
  | Some x, None => Some x
  | Some x, Some y => Some (if fst y <? fst x then y else x)
  end.
Definition res_find (wl : list worker) : option (nat * V) :=
  match combine min_by_idx (map w_find wl) with Some o => o | None => None end.

(** [Runner::run_map] + [SplitVec::append]: fragments in spawn order *)
Definition res_colx (wl : list worker) : list V := flat_map w_colx wl.

(** ** the k-way merge of [heap_sort_into_vec]: an abstract min-priority queue over the
    vectors' heads.  [pick_min] returns the vector whose head has the smallest key. *)
Definition key_lt (a b : nat * nat) : bool :=
  (fst a <? fst b) || ((fst a =? fst b) && (snd a <? snd b)).

Fixpoint pick_min (vs : list (list ((nat * nat) * V))) : option (nat * ((nat * nat) * V)) :=
  match vs with
  | [] => None
  | v :: r =>
      let rest := match pick_min r with Some (j, x) => Some (S j, x) | None => None end in
      match v with
      | [] => rest
      | x :: _ =>
          match rest with
          | Some (j, y) => if key_lt (fst y) (fst x) then Some (j, y) else Some (0, x)
          | None => Some (0, x)
          end
      end
  end.

Fixpoint pop_at (vs : list (list ((nat * nat) * V))) (j : nat) : list (list ((nat * nat) * V)) :=
  match vs, j with
  | [], _ => []
  | v :: r, 0 => tl v :: r
  | v :: r, S j' => v :: pop_at r j'
  end.

Fixpoint kmerge_fuel (fuel : nat) (vs : list (list ((nat * nat) * V))) : list ((nat * nat) * V) :=
  match fuel with
  | 0 => []
  | S f => match pick_min vs with
           | None => []
           | Some (j, x) => x :: kmerge_fuel f (pop_at vs j)
           end
  end.

Definition kmerge (vs : list (list ((nat * nat) * V))) : list ((nat * nat) * V) :=
  kmerge_fuel (length (concat vs)) vs.

(** ordered collect of the filtering kernels: merged values pushed after the target's contents *)
Definition res_col (old : list V) (wl : list worker) : list V :=
  old ++ map snd (kmerge (map w_col wl)).

(** ** [map_col]: positional writes into the ordered bag *)
Definition w_writes (offset : nat) (w : worker) : list (nat * V) :=
  flat_map (fun i => map (fun v => (offset + i, v)) (vals i)) (seen w).

(** the bag after the run: [Some v] if every position of [offset, offset + n) was written
    exactly once and nothing else was written (then [unwrap_only_if_counts_match] succeeds and
    the vector is the positional content), [None] otherwise (gaps: the unwrap panics) *)
Fixpoint lookup (l : list (nat * V)) (i : nat) : list V :=
  match l with
  | [] => []
  | (j, v) :: r => if j =? i then v :: lookup r i else lookup r i
  end.
Fixpoint read_bag (writes : list (nat * V)) (offset n : nat) : option (list V) :=
  match n with
  | 0 => Some []
  | S n' =>
      match lookup writes offset, read_bag writes (S offset) n' with
      | [v], Some r => Some (v :: r)
      | _, _ => None
      end
  end.
Definition res_map_col (old : list V) (n : nat) (wl : list worker) : option (list V) :=
  let writes := flat_map (w_writes (length old)) wl in
  if length writes =? n
  then match read_bag writes (length old) n with Some r => Some (old ++ r) | None => None end
  else None.

(** the same when the concurrent iterator had been advanced by [k] elements before [into_par()]:
    it hands out the original indices [k + i], while the bag was sized -- and is read back -- for
    the [n] elements that remain ([src/core/map_col.rs]: [offset + idx]) *)
Definition res_map_col_adv (k : nat) (old : list V) (n : nat) (wl : list worker) : option (list V) :=
  let writes := flat_map (w_writes (length old + k)) wl in
  if length writes =? n
  then match read_bag writes (length old) n with Some r => Some (old ++ r) | None => None end
  else None.

Lemma res_map_col_adv_0 old n wl : res_map_col_adv 0 old n wl = res_map_col old n wl.
Proof. unfold res_map_col_adv. rewrite Nat.add_0_r. reflexivity. Qed.

(** ** call logs *)
(** full terminals evaluate the whole trace of every position they process *)
Definition w_calls_full (w : worker) : list (nat * V) := flat_map (fun i => calls (pe i)) (seen w).
(** short-circuit terminals evaluate the trace of a position up to its first yield *)
Definition w_calls_find (w : worker) : list (nat * V) :=
  flat_map (fun i => calls (fst (upto_yield (pe i)))) (seen w).

End Kernels.
