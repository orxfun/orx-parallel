(** Master: the two halves of the end-to-end theorems put together.  For a computation built by any
    sequence of operations (through any number of eager sites), the kernel results over any worker
    list of the [Outcome] shape are the sequential std chain's ([gen_*]: PipelineP's [build_*] with
    KernelsP's [res_*]); a completed run of either machine under any schedule has that shape
    ([Program.mrun_outcome], [MasterIter.imrun_outcome]), and the property files apply one to the
    other. *)
From OrxPar Require Import Base Settings SettingsP Spec Pipeline PipelineP Machine MachineP
  Kernels KernelsP Program.
Set Implicit Arguments.

Section Master.
Variable V : Type.
Implicit Types (src : list V) (ops : list (op V)) (r : Runner) (sched : list nat).

(** the concurrent iterator the terminal runs over, and the per-position traces *)
Definition tsrc src ops : list V := ps_src (build src ops).
Definition tpar src ops : par V := ps_par (build src ops).
Definition tpe src ops : nat -> list (event V) := pe_of (tpar src ops) (tsrc src ops).
Definition tlen src ops : nat := length (tsrc src ops).

Lemma vals_all src ops :
  flat_map (vals (tpe src ops)) (seq 0 (tlen src ops)) = seq_chain (stages_of ops) src.
Proof.
  unfold tpe. rewrite vals_positions. apply (build_denote src ops).
Qed.

Lemma calls_all src ops :
  flat_map (fun i => calls (tpe src ops i)) (seq 0 (tlen src ops)) = run_log (build src ops).
Proof. unfold tpe. rewrite calls_positions. reflexivity. Qed.

(** the kernel results of any machine whose completed runs have the [Outcome] shape (the
    indexed-source machine below, the iterator-source machine of MachineIter.v) *)
Section FromOutcome.
Variables (src : list V) (ops : list (op V)) (wl : list worker).

Section FullO.
Hypothesis Hout : Outcome (tlen src ops) (@nostop) wl.

(** C07 *)
Theorem gen_collect_x : Permutation (res_colx (tpe src ops) wl) (seq_chain (stages_of ops) src).
Proof. rewrite <- vals_all. apply (res_colx_perm (tpe src ops) Hout). reflexivity. Qed.

(** C04 *)
Theorem gen_count : res_cnt (tpe src ops) wl = length (seq_chain (stages_of ops) src).
Proof. rewrite <- vals_all. apply (res_cnt_eq (tpe src ops) Hout). reflexivity. Qed.

(** C03 *)
Theorem gen_reduce (f : V -> V -> V) :
  (forall a b c, f (f a b) c = f a (f b c)) -> (forall a b, f a b = f b a) ->
  res_red (tpe src ops) f wl = reduce_list f (seq_chain (stages_of ops) src).
Proof. rewrite <- vals_all. apply (res_red_eq (tpe src ops) Hout); auto. Qed.

(** C01 / C06, filtering kernels: merged results are pushed after the existing contents *)
Theorem gen_collect_merge (old : list V) :
  res_col (tpe src ops) old wl = old ++ seq_chain (stages_of ops) src.
Proof. rewrite <- vals_all. apply (res_col_eq (tpe src ops) Hout). reflexivity. Qed.

(** C01 / C06, map-only kernel: positional writes after the existing contents *)
Theorem gen_collect_bag (old : list V) :
  (forall x, length (yields (trace (tpar src ops) x)) = 1) ->
  res_map_col (tpe src ops) old (tlen src ops) wl = Some (old ++ seq_chain (stages_of ops) src).
Proof.
  intros H1. rewrite <- vals_all.
  apply (res_map_col_eq (tpe src ops) Hout); [reflexivity|]. apply vals_one, H1.
Qed.

(** C05, full terminals: run-time calls are, up to order, the calls of the sequential run of the
    terminal's computation; together with the construction-time calls they are the calls of the
    sequential chain *)
Theorem gen_calls :
  Permutation (ps_clog (build src ops) ++ flat_map (w_calls_full (tpe src ops)) wl)
              (seq_log (stages_of ops) src).
Proof.
  rewrite <- (build_calls_perm src ops). apply Permutation_app_head.
  rewrite <- calls_all. apply (calls_full_perm (tpe src ops) Hout). reflexivity.
Qed.
End FullO.

Section FindO.
Hypothesis Hout : Outcome (tlen src ops) (stop_of (tpar src ops) (tsrc src ops)) wl.

Theorem gen_find : res_find (tpe src ops) wl = find_in (tpe src ops) (seq 0 (tlen src ops)).
Proof. apply (res_find_eq (tpe src ops) Hout). intros i. reflexivity. Qed.

(** C02: the value is the first element of the sequential chain's output ... *)
Theorem gen_find_value :
  option_map snd (res_find (tpe src ops) wl) = hd_error (seq_chain (stages_of ops) src).
Proof. rewrite gen_find, find_in_hd. f_equal. apply vals_all. Qed.

(** ... and the index is the least position of the iterator the terminal runs over whose
    element produces an output (for a computation without eager sites that iterator is the
    original source, [build_lazy]) *)
Theorem gen_find_index i v :
  res_find (tpe src ops) wl = Some (i, v) ->
  i < tlen src ops /\ hd_error (vals (tpe src ops) i) = Some v /\
  forall j, j < i -> vals (tpe src ops) j = [].
Proof.
  rewrite gen_find. intros H. apply find_in_least in H as (H1 & H2 & H3).
  repeat split; auto; [lia|]. intros j Hj. apply H3. lia.
Qed.

Theorem gen_find_none :
  res_find (tpe src ops) wl = None <-> seq_chain (stages_of ops) src = [].
Proof.
  pose proof gen_find_value as H. split; intros E; rewrite E in H; cbn in H.
  - destruct (seq_chain _ _); [reflexivity|discriminate].
  - destruct (res_find _ _); [discriminate|reflexivity].
Qed.
End FindO.

End FromOutcome.

(** C08 (machine level): a completed run had at least one worker, and never more than
    [max_num_threads] *)
Lemma mrun_workers r len stop sched :
  runner_pos r -> all_done (mrun r len stop sched) ->
  1 <= length (ws (mrun r len stop sched)) <= m_maxt r.
Proof.
  intros Hw Hd. split; [|apply mrun_threads; exact Hw].
  pose proof (O_nonempty (mrun_outcome Hw _ _ _ Hd)) as Hne.
  destruct (ws _); [congruence|simpl; lia].
Qed.

(** a full (non short-circuit) run *)
Definition full_run r src ops sched : sys := mrun r (tlen src ops) (@nostop) sched.

Section Full.
Variables (src : list V) (ops : list (op V)) (r : Runner) (sched : list nat).
Hypothesis r_wf : runner_wf r.
Hypothesis Hdone : all_done (full_run r src ops sched).

Let wl := ws (full_run r src ops sched).

(** C08 (machine level) *)
Theorem par_threads : 1 <= length wl <= m_maxt r.
Proof. apply mrun_workers; auto with runner. Qed.

End Full.

(** ** short-circuit terminals *)
Definition find_run r src ops sched : sys :=
  mrun r (tlen src ops) (stop_of (tpar src ops) (tsrc src ops)) sched.

Section Find.
Variables (src : list V) (ops : list (op V)) (r : Runner) (sched : list nat).
Hypothesis r_wf : runner_wf r.
Hypothesis Hdone : all_done (find_run r src ops sched).

Let wl := ws (find_run r src ops sched).

(** C08 (machine level), short-circuit terminals *)
Theorem par_threads_find : 1 <= length wl <= m_maxt r.
Proof. apply mrun_workers; auto with runner. Qed.

End Find.

(** ** a concurrent iterator advanced by [k] elements before [into_par()]: the computation runs
    over the rest, and position [i] of the rest is position [k + i] of the original source
    (what [find_with_index] reports: [shift_res] in Exec.v) *)
Lemma pre_advanced_position (A : Type) (l : list A) k i :
  nth_error (skipn k l) i = nth_error l (k + i).
Proof.
  revert l. induction k as [|k IH]; intros [|a l]; cbn [skipn plus nth_error]; auto.
  destruct i; reflexivity.
Qed.

(** ** eager sites: the vector an eager transformation materialises, computed by an actual
    runner run under any schedule, is the denotation [apply_stage] uses *)
Definition eager_vector (st : pstate V) r sched : list V :=
  res_col (pe_of (ps_par st) (ps_src st)) []
          (ws (mrun r (length (ps_src st)) (@nostop) sched)).

Theorem eager_vector_correct (st : pstate V) r sched :
  runner_wf r -> all_done (mrun r (length (ps_src st)) (@nostop) sched) ->
  eager_vector st r sched = denote st.
Proof.
  intros Hw Hd. unfold eager_vector.
  pose proof (mrun_outcome (runner_wf_pos Hw) _ _ _ Hd) as Hout.
  rewrite (res_col_eq (pe_of (ps_par st) (ps_src st)) Hout (fun _ => eq_refl) []).
  apply vals_positions.
Qed.

End Master.
