(** MasterIter: the end-to-end theorems for by-value iterator sources (ConIterOfIter and
    ConIterOfIterX): the runner machine of MachineIter.v with the settings of Settings.v. *)
From OrxPar Require Import Base Settings SettingsP Spec Pipeline Machine MachineP MachineIter
  MachineIterP TerminationIter Kernels Program Master.
Set Implicit Arguments.

Section IterRun.
Variable r : Runner.

Definition imrunp (srclen : nat) (ordered : bool) (stop panics : nat -> bool) (sched : list nat) : isys :=
  irun srclen (match r_input_len r with Some _ => true | None => false end) ordered stop panics
       (m_dospawn r) (m_nextc r) (iinit (m_c0 r)) sched.
Definition imrun srclen ordered stop sched := imrunp srclen ordered stop nopanic sched.

Theorem imrunp_IGInv (r_pos : runner_pos r) srclen ordered stop panics sched :
  IGInv srclen stop panics (m_maxt r) (imrunp srclen ordered stop panics sched).
Proof. apply irun_IGInv, iinit_IGInv; eauto with runner. Qed.

(** C05: the user's iterator is advanced by at most one thread at a time, in every reachable
    state of every schedule, whatever panics *)
Theorem imrun_mutual_exclusion (r_pos : runner_pos r) srclen ordered stop panics sched :
  readers (iws (imrunp srclen ordered stop panics sched)) <= 1.
Proof. apply mutual_exclusion with (maxt := m_maxt r); eauto with runner. Qed.

(** C02 / C05: the positions a reader receives are the true source positions *)
Theorem imrun_reader_positions (r_pos : runner_pos r) srclen ordered stop panics sched w t got :
  In w (iws (imrunp srclen ordered stop panics sched)) -> iph w = IReading t got ->
  ifront (imrunp srclen ordered stop panics sched) = t + got.
Proof. apply reader_positions with (maxt := m_maxt r); eauto with runner. Qed.

Theorem imrun_outcome (r_pos : runner_pos r) srclen ordered stop sched :
  iall_done (imrun srclen ordered stop sched) ->
  Outcome srclen stop (map wk (iws (imrun srclen ordered stop sched))).
Proof.
  intros Hd.
  exact (ifinal_outcome (m_maxt_pos r_pos) (imrunp_IGInv r_pos srclen ordered stop nopanic sched) Hd
                        (fun _ => eq_refl)).
Qed.

Theorem imrun_threads (r_pos : runner_pos r) srclen ordered stop panics sched :
  length (iws (imrunp srclen ordered stop panics sched)) <= m_maxt r.
Proof.
  pose proof (I_sp (imrunp_IGInv r_pos srclen ordered stop panics sched)) as H.
  destruct (isph (imrunp srclen ordered stop panics sched)); lia.
Qed.

(** the liveness invariant of the ticket / gate protocol, in every reachable state *)
Theorem imrunp_LInv (r_pos : runner_pos r) srclen ordered stop panics sched :
  LInv ordered (imrunp srclen ordered stop panics sched).
Proof. apply irun_LInv with (maxt := m_maxt r); eauto using iinit_IGInv, iinit_LInv with runner. Qed.

(** no schedule contains more effective steps than the initial measure: waiting on the handle
    aside, the run is finite *)
Theorem imrun_effective_bounded (r_pos : runner_pos r) srclen ordered stop panics sched :
  ieffective srclen (match r_input_len r with Some _ => true | None => false end) ordered stop panics
             (m_dospawn r) (m_nextc r) (iinit (m_c0 r)) sched
  <= 9 * m_maxt r + 2 + 5 * srclen.
Proof.
  eapply Nat.le_trans;
    [apply ieffective_le_iphi with (maxt := m_maxt r); eauto using iinit_IGInv with runner|].
  now rewrite iphi_init.
Qed.

(** from here on [runner_wf r] is assumed, as in the property files; what is used of it is
    [runner_pos r] *)
Hypothesis r_wf : runner_wf r.

(** C10 / C14 over iterator sources: whatever happened so far (tickets taken and not yet served,
    a reader in the middle of its chunk, early exit, panics), a fair continuation completes the
    run -- the handle protocol cannot deadlock and waiting is never a livelock *)
Theorem imrunp_completes srclen ordered stop panics sched :
  iall_done (imrunp srclen ordered stop panics
               (sched ++ round_robin (m_maxt r)
                           (iphi srclen (m_maxt r) (imrunp srclen ordered stop panics sched)))).
Proof.
  unfold imrunp, MachineIter.irun. rewrite fold_left_app. apply iall_doneb_spec.
  apply irr_completes; eauto using imrunp_IGInv, imrunp_LInv with runner.
Qed.

(** C10 over iterator sources (the sources that can be unbounded): once the early-exit signal is
    out -- or the gate is closed for any other reason -- the rest of the run takes a number of
    effective steps that depends on the thread bound and the chunk sizes only, whatever the
    source still holds: the current reader finishes its chunk, every worker processes what it
    holds, and each leaves at its next pull *)
Theorem imrun_after_close srclen ordered stop panics sched sched2 :
  igate (imrunp srclen ordered stop panics sched) = Closed ->
  ieffective srclen (match r_input_len r with Some _ => true | None => false end) ordered stop panics
             (m_dospawn r) (m_nextc r) (imrunp srclen ordered stop panics sched) sched2
  <= 9 * m_maxt r + 3
     + sum_list (map (fun w => 6 * icsize w + 8) (iws (imrunp srclen ordered stop panics sched))).
Proof.
  intros Hc. pose proof (runner_wf_pos r_wf) as r_pos.
  pose proof (imrunp_IGInv r_pos srclen ordered stop panics sched) as G.
  eapply Nat.le_trans; [apply ieffective_le_jphi with (maxt := m_maxt r); eauto with runner|].
  eapply jphi_bound; eauto with runner.
  apply irun_HB with (maxt := m_maxt r); eauto using iinit_IGInv with runner. constructor.
Qed.

Theorem imrun_signal_closes srclen ordered stop panics sched :
  iskipped (imrunp srclen ordered stop panics sched) = true ->
  igate (imrunp srclen ordered stop panics sched) = Closed.
Proof.
  unfold imrunp. apply irun_SkInv. intros E. discriminate E.
Qed.

Lemma ifinished_owned (l : list iworker) : (forall w, In w l -> ifinished w) ->
  Permutation (flat_map iseen l ++ flat_map iaband l) (flat_map own l).
Proof.
  intros Hfin. rewrite <- flat_map_app_perm. erewrite flat_map_ext_in; [reflexivity|].
  intros w Hw. rewrite own_phase. now destruct (Hfin w Hw) as [-> | ->].
Qed.

(** C13 / C14 over iterator sources: for every schedule and whatever closures panic, when all
    threads have finished, every element the user's iterator has yielded was handed to exactly
    one worker and has been either processed (moved on into safe code) or abandoned (dropped
    with that worker's chunk buffer) exactly once -- never both, never twice.  What was never
    yielded is still inside the user's iterator and is dropped with it. *)
Theorem imrunp_source_accounting srclen ordered stop panics sched :
  iall_done (imrunp srclen ordered stop panics sched) ->
  Permutation (flat_map iseen (iws (imrunp srclen ordered stop panics sched))
               ++ flat_map iaband (iws (imrunp srclen ordered stop panics sched)))
              (seq 0 (ifront (imrunp srclen ordered stop panics sched)))
  /\ ifront (imrunp srclen ordered stop panics sched) <= srclen.
Proof.
  intros [_ Hfin]. pose proof (imrunp_IGInv (runner_wf_pos r_wf) srclen ordered stop panics sched) as G.
  split; [|apply (I_front G)].
  rewrite <- (I_perm G). apply ifinished_owned. exact Hfin.
Qed.

End IterRun.

(** ** the kernel results over an iterator source are [Master.gen_*] of [imrun_outcome]; the bag: *)
Section IterMaster.
Variable V : Type.
Variables (src : list V) (ops : list (op V)) (r : Runner) (ordered : bool) (sched : list nat).
Hypothesis r_wf : runner_wf r.

Section Full.
Hypothesis Hdone : iall_done (imrun r (tlen src ops) ordered (@nostop) sched).
Let wl := map wk (iws (imrun r (tlen src ops) ordered (@nostop) sched)).
Let Hout : Outcome (tlen src ops) (@nostop) wl := imrun_outcome (runner_wf_pos r_wf) _ _ _ _ Hdone.

Theorem iter_collect_bag (old : list V) :
  (forall x, length (yields (trace (tpar src ops) x)) = 1) ->
  res_map_col (tpe src ops) old (tlen src ops) wl = Some (old ++ seq_chain (stages_of ops) src).
Proof. apply gen_collect_bag. exact Hout. Qed.
End Full.

End IterMaster.
