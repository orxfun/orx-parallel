(** ExactChunks (C11): with [ChunkSize::Exact(c)] every pull starts at a multiple of [c] and takes
    [c] elements -- fewer only when it reaches the end of the source --, for every worker, for the
    whole run and for every schedule; so an aligned block [q*c, (q+1)*c) is never split between
    two threads. *)
From OrxPar Require Import Base Settings SettingsP Machine MachineP Program.
Set Implicit Arguments.

Section Exact.
Variable len : nat.
Variable known : bool.
Variable stop : nat -> bool.
Variable panics : nat -> bool.
Variable dospawn : nat -> option nat -> bool.
Variable nextc : nat -> option nat -> option nat.
Variable c : nat.
(** the spawner hands the same size to every worker *)
Hypothesis nextc_c : forall n h x, nextc n h = Some x -> x = c.

Notation step := (step len known stop panics dospawn nextc).
Notation run := (run len known stop panics dospawn nextc).
Notation step_cases := (step_cases len known stop panics dospawn nextc).

Definition starts_aligned (w : worker) : Prop := Forall (fun p => exists q, fst p = q * c) (pulls w).

Record EInv (s : sys) : Prop := {
  E_cur : cur s = c;
  E_cs : Forall (fun w => csize w = c) (ws s);
  E_ctr : ctr s < len -> exists q, ctr s = q * c;
  E_al : Forall starts_aligned (ws s)
}.

Lemma wstep_E ct f sk w ct' f' sk' w' :
  wstep_rel len stop panics ct f sk w ct' f' sk' w' ->
  csize w = c -> (ct < len -> exists q, ct = q * c) -> starts_aligned w ->
  csize w' = c /\ (ct' < len -> exists q, ct' = q * c) /\ starts_aligned w'.
Proof.
  unfold starts_aligned. intros W Hc Hq Ha.
  destruct W as [Hp Hl|Hp Hl|b k p' sn' ab' Hp P|Hp|Hp]; auto.
  - (* S_pull: the counter moves on by [c] *)
    destruct (Hq Hl) as [q Eq]. repeat split; auto.
    + intros _. exists (S q). lia.
    + apply Forall_app. eauto.
  - (* S_end *) repeat split; auto. lia.
  - (* S_skip *) repeat split; auto. lia.
Qed.

Lemma step_EInv s t : EInv s -> EInv (step s t).
Proof.
  intros [Hcur Hcs Hctr Hal].
  destruct (step_cases s t) as [new ph' cu Hn Hcu _|i|l1 w l2 ct f sk w' E W].
  - constructor; cbn [cur ws ctr]; auto.
    + destruct Hcu as [->|(n & h & Hcu)]; eauto.
    + apply Forall_app. split; auto. destruct Hn as [-> | ->]; repeat constructor; auto.
    + apply Forall_app. split; auto. destruct Hn as [-> | ->]; repeat constructor.
  - now constructor.
  - rewrite E in *.
    destruct (wstep_E W (Forall_elt _ _ _ Hcs) Hctr (Forall_elt _ _ _ Hal)) as (Hc' & Hq' & Ha').
    constructor; auto; now apply Forall_mid_swap with w.
Qed.

Lemma run_EInv s sched : EInv s -> EInv (run s sched).
Proof. apply run_inv. apply step_EInv. Qed.

Lemma init_EInv : EInv (init c).
Proof. constructor; cbn; auto. intros _. exists 0. reflexivity. Qed.

End Exact.

Section ExactRun.
Variable r : Runner.
Hypothesis r_wf : runner_wf r.
Variable x : N.
Hypothesis r_exact : r_chunk r = RExact x.

Lemma m_nextc_exact n h c : m_nextc r n h = Some c -> c = m_c0 r.
Proof. intros H. exact (proj1 (m_nextc_shape _ _ _ H) x r_exact). Qed.

(** C11: every pull of every worker, in every reachable state of every schedule (early exit and
    panics included): it starts at a multiple of the resolved size, and takes exactly that many
    elements unless it reaches the end of the source *)
Theorem exact_pulls len stop panics sched w b k :
  In w (ws (mrunp r len stop panics sched)) -> In (b, k) (pulls w) ->
  csize w = m_c0 r /\ (exists q, b = q * m_c0 r) /\ b < len /\ k = Nat.min (m_c0 r) (len - b).
Proof.
  intros Hw Hp.
  assert (E : EInv len (m_c0 r) (mrunp r len stop panics sched)).
  { unfold mrunp. apply run_EInv; [intros n h c; apply m_nextc_exact|apply init_EInv]. }
  pose proof (mrunp_GInv (runner_wf_pos r_wf) len stop panics sched) as G. pose proof (Forall_In (E_cs E) Hw) as Hc.
  destruct (Forall_In (Forall_In (E_al E) Hw) Hp) as [q Hq].
  destruct (Forall_In (W_pulls (Forall_In (G_w G) Hw)) Hp) as [Hlt Hk].
  rewrite Hc in Hk. eauto.
Qed.

(** ... consequently an aligned block is never split: if a worker pulled position [i], it pulled
    every position of [i]'s block that exists *)
Theorem exact_block_one_worker len stop panics sched w i j :
  In w (ws (mrunp r len stop panics sched)) -> In i (chunks_of (pulls w)) ->
  j < len -> j / m_c0 r = i / m_c0 r -> In j (chunks_of (pulls w)).
Proof.
  intros Hw Hi Hj Hblk. apply in_flat_map in Hi as ([b k] & Hp & Hin). apply in_seq in Hin.
  cbn [fst snd] in Hin.
  destruct (exact_pulls _ _ _ _ _ _ _ Hw Hp) as (_ & [q ->] & Hlt & ->).
  apply in_flat_map. eexists. split; [exact Hp|]. apply in_seq. cbn [fst snd].
  (* [i] lies in block [q], hence so does [j] *)
  pose proof (m_c0_pos (runner_wf_pos r_wf)) as Hpos. set (c := m_c0 r) in *.
  assert (i / c = q) by (symmetry; apply (Nat.div_unique i c q (i - q * c)); lia).
  pose proof (Nat.mul_div_le j c). pose proof (Nat.mul_succ_div_gt j c). lia.
Qed.

End ExactRun.
