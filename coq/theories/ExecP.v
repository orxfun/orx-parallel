(** ExecP: the value the executable model computes in its parallel branch is the value of its
    sequential branch.

    [Exec.exec] is what the correspondence checks run against the crate.  Its parallel branch runs
    a runner machine under the case's schedule and applies [finish] to what the workers did; its
    sequential branch applies [finish_seq] (the std chain over the composed closures).  Here:
    for every terminal, every computation [p], every source and every completed panic-free run of
    either machine, [finish] = [finish_seq] (up to the order of [collect_x]; reduce-family
    operators associative and commutative), and so for [exec] itself ([exec_parallel_value]).  So a
    value that differs from the model's differs from the sequential specification.
    [advanced_bag_panics] is the class of inputs of known finding C01. *)
From OrxPar Require Import Base Settings SettingsP Spec Pipeline Machine MachineP Termination
  MachineIter TerminationIter Kernels KernelsP Program MasterIter Exec.
Set Implicit Arguments.

Definition req (a b : result) : Prop :=
  match a, b with
  | RBag x, RBag y => Permutation x y
  | _, _ => a = b
  end.

Lemma req_refl a : req a a.
Proof. destruct a; cbn; auto. Qed.

(** the shape in which [finish_seq] returns the result of its local find loop *)
Lemma fst_let {A B C} (x : A * B) (f : B -> C) : fst (let '(a, b) := x in (f b, a)) = f (snd x).
Proof. now destruct x. Qed.

Section FinishSpec.
Variables (p : par Z) (src : list Z) (wl : list worker).
Let pe := pe_of p src.
Let n := length src.

(** the find loop of [finish_seq], by name *)
Fixpoint seq_go (i : nat) (l : list Z) : list (nat * Z) * option (nat * Z) :=
  match l with
  | [] => ([], None)
  | x :: r =>
      let '(pre, o) := upto_yield (trace p x) in
      match o with
      | Some v => (calls pre, Some (i, v))
      | None => let '(lg, res) := seq_go (S i) r in (calls pre ++ lg, res)
      end
  end.

Lemma seq_go_find_in : forall (l pre : list Z), src = pre ++ l ->
  snd (seq_go (length pre) l) = find_in pe (seq (length pre) (length l)).
Proof.
  induction l as [|x r IH]; intros pre E; [reflexivity|].
  cbn [length seq find_in seq_go]. unfold pe at 1, pe_of, first_yield.
  rewrite E, nth_error_app_here.
  destruct (upto_yield (trace p x)) as [pre' [v|]]; [reflexivity|].
  specialize (IH (pre ++ [x])). rewrite app_length, Nat.add_1_r, <- app_assoc in IH.
  rewrite <- (IH E). now destruct (seq_go _ r).
Qed.

Section Full.
Hypothesis Hout : Outcome n (@nostop) wl.
(** the bag path needs one value per element (map-only computations) *)
Hypothesis one_each : kind_of p = KMap -> forall x, length (yields (trace p x)) = 1.

Theorem finish_full (t : terminal) :
  is_find t = false ->
  (forall f, red_family t = Some f ->
     (forall a b c, f (f a b) c = f a (f b c)) /\ (forall a b, f a b = f b a)) ->
  req (finish t pe n (kind_of p) 0 wl) (fst (finish_seq t (flat_map (trace p) src) src p)).
Proof.
  intros t_full op_ok.
  pose proof (vals_positions p src) as VY. fold pe n in VY.
  (* the ordered collects: positional writes for map-only computations, the merge otherwise *)
  assert (Hcol : forall old,
    match kind_of p with
    | KMap => match res_map_col_adv pe 0 old n wl with Some l => RList l | None => RPanic end
    | _ => RList (res_col pe old wl)
    end = RList (old ++ flat_map (vals pe) (seq 0 n))).
  { intros old. destruct (kind_of p);
      try (now rewrite (res_col_eq pe Hout (fun _ => eq_refl))).
    rewrite res_map_col_adv_0, (res_map_col_eq pe Hout (fun _ => eq_refl)); [reflexivity|].
    apply vals_one, one_each, eq_refl. }
  assert (Hred : forall f, red_family t = Some f ->
            res_red pe f wl = reduce_list f (flat_map (vals pe) (seq 0 n))).
  { intros f Hf. destruct (op_ok f Hf) as [Ha Hc].
    exact (res_red_eq pe Hout (fun _ => eq_refl) f Ha Hc). }
  destruct t; try discriminate t_full; cbn [finish finish_seq fst req red_family];
    rewrite <- ?VY; try (now rewrite Hcol); try (now rewrite (Hred _ eq_refl)).
  - (* collect_x *) apply (res_colx_perm pe Hout). reflexivity.
  - (* count *) now rewrite (res_cnt_eq pe Hout (fun _ => eq_refl)).
  - (* for_each *) reflexivity.
Qed.
End Full.

Section Find.
Hypothesis Hout : Outcome n (stop_of p src) wl.

Theorem finish_find (t : terminal) :
  is_find t = true ->
  finish t pe n (kind_of p) 0 wl = fst (finish_seq t (flat_map (trace p) src) src p).
Proof.
  intros t_find.
  assert (E : res_find pe wl = snd (seq_go 0 src)).
  { rewrite (seq_go_find_in src [] eq_refl : snd (seq_go 0 src) = _). apply (res_find_eq pe Hout).
    reflexivity. }
  (* [finish_seq]'s local loop is [seq_go] *)
  destruct t; try discriminate t_find; cbn [finish]; rewrite E;
    symmetry; apply (fst_let (seq_go 0 src)).
Qed.
End Find.

End FinishSpec.

(** ** with the machines: every completed panic-free run, every schedule *)
Section RunSpec.
Variables (r : Runner) (p : par Z) (src : list Z) (t : terminal).
Hypothesis r_wf : runner_wf r.
Let n := length src.
Let stop := if is_find t then stop_of p src else (@nostop).
Hypothesis one_each : kind_of p = KMap -> forall x, length (yields (trace p x)) = 1.
Hypothesis op_ok : forall f, red_family t = Some f ->
  (forall a b c, f (f a b) c = f a (f b c)) /\ (forall a b, f a b = f b a).

Lemma finish_of_outcome wl : Outcome n stop wl ->
  req (finish t (pe_of p src) n (kind_of p) 0 wl) (fst (finish_seq t (flat_map (trace p) src) src p)).
Proof.
  unfold n. intros H. destruct (is_find t) eqn:E; [|apply finish_full; auto].
  rewrite (finish_find H t E). apply req_refl.
Qed.

(** indexed sources *)
Theorem exec_value_indexed sched :
  all_done (mrun r n stop sched) ->
  req (finish t (pe_of p src) n (kind_of p) 0 (ws (mrun r n stop sched)))
      (fst (finish_seq t (flat_map (trace p) src) src p)).
Proof. intros Hd. apply finish_of_outcome, mrun_outcome; auto with runner. Qed.

(** by-value iterator sources, ordered or first-come handle *)
Theorem exec_value_iter ordered sched :
  iall_done (imrun r n ordered stop sched) ->
  req (finish t (pe_of p src) n (kind_of p) 0 (map wk (iws (imrun r n ordered stop sched))))
      (fst (finish_seq t (flat_map (trace p) src) src p)).
Proof. intros Hd. apply finish_of_outcome, imrun_outcome; auto with runner. Qed.

(** the macro-schedules of the deterministic scheduler *)
Theorem exec_value_macro sched :
  all_done (macro_run n (match r_input_len r with Some _ => true | None => false end) stop (@nopanic) r
                      (init (m_c0 r)) sched) ->
  req (finish t (pe_of p src) n (kind_of p) 0
              (ws (macro_run n (match r_input_len r with Some _ => true | None => false end) stop (@nopanic) r
                             (init (m_c0 r)) sched)))
      (fst (finish_seq t (flat_map (trace p) src) src p)).
Proof.
  rewrite macro_run_is_run. intros Hd. apply finish_of_outcome.
  exact (mrun_outcome (runner_wf_pos r_wf) n stop _ Hd).
Qed.

End RunSpec.

(** ** the class of inputs on which the bag path fails (known finding C01): the source was a
    concurrent iterator advanced by [k >= 1] elements and something is left.  For every such run,
    whatever the workers did, the first slot of the bag is never written and the unwrap panics. *)
Section Advanced.
Variable pe : nat -> list (event Z).

Theorem advanced_bag_panics k old n wl : 0 < k -> 0 < n -> res_map_col_adv pe k old n wl = None.
Proof.
  intros Hk Hn. unfold res_map_col_adv, w_writes. rewrite <- flat_map_flat_map.
  destruct (_ =? n); [|reflexivity]. destruct n as [|n']; [lia|]. cbn [read_bag].
  (* every write goes to a slot at or after [length old + k] *)
  enough (E : lookup (flat_map (fun i => map (fun v => (length old + k + i, v)) (vals pe i))
                               (flat_map seen wl)) (length old) = []) by now rewrite E.
  induction (flat_map seen wl) as [|i l IH]; [reflexivity|]. cbn [flat_map].
  rewrite lookup_app, lookup_pos, IH.
  destruct (Nat.eqb_spec (length old + k + i) (length old)); [lia|reflexivity].
Qed.

(** consequently [finish] of a map-only ordered collect over such a source is a panic *)
Corollary advanced_map_collect_panics k n wl : 0 < k -> 0 < n ->
  finish TCollectVec pe n KMap k wl = RPanic /\ finish TCollectSplit pe n KMap k wl = RPanic /\
  forall tg old, finish (TCollectInto tg old) pe n KMap k wl = RPanic.
Proof.
  intros Hk Hn. cbn [finish]. rewrite !advanced_bag_panics; auto.
  repeat split. intros tg old. rewrite advanced_bag_panics; auto.
Qed.
End Advanced.

(** ** the extracted function itself: the computation of a case as [exec0] builds it *)
Definition c_st (c : case) : pstate Z :=
  let st0 := build (skipn (c_pre c) (c_input c)) (to_ops 0 (c_ops c)) in
  match c_term c with
  | TForEach => apply_stage st0 (SMap (length (c_ops c)) (fun x => x))
  | _ => st0
  end.
Definition c_p (c : case) : par Z := term_par (ps_par (c_st c)) (c_term c) (length (c_ops c)).
(** the value of the sequential branch for the same computation *)
Definition c_seqval (c : case) : result :=
  fst (finish_seq (c_term c) (flat_map (trace (c_p c)) (ps_src (c_st c))) (ps_src (c_st c)) (c_p c)).

Lemma complete_is_run len known stop panics r rounds : forall s sched, exists sc,
  complete len known stop panics r rounds (run len known stop panics (m_dospawn r) (m_nextc r) s sched)
  = run len known stop panics (m_dospawn r) (m_nextc r) s sc.
Proof.
  induction rounds as [|n IH]; intros s sched; cbn [complete]; [now exists sched|].
  destruct (all_doneb _); [now exists sched|]. unfold run. rewrite <- fold_left_app. apply IH.
Qed.

Lemma icomplete_is_irun len known ordered stop panics r rounds : forall s sched, exists sc,
  icomplete len known ordered stop panics r rounds
    (irun len known ordered stop panics (m_dospawn r) (m_nextc r) s sched)
  = irun len known ordered stop panics (m_dospawn r) (m_nextc r) s sc.
Proof.
  induction rounds as [|n IH]; intros s sched; cbn [icomplete]; [now exists sched|].
  destruct (iall_doneb _); [now exists sched|]. unfold irun. rewrite <- fold_left_app. apply IH.
Qed.

Lemma reached_outcome r n stop s : runner_pos r ->
  (exists sc, s = mrun r n stop sc) -> all_doneb s = true -> Outcome n stop (ws s).
Proof. intros Hr [sc ->] Hd. apply mrun_outcome; [exact Hr|now apply all_doneb_spec]. Qed.

Lemma ireached_outcome r n ordered stop s : runner_pos r ->
  (exists sc, s = imrun r n ordered stop sc) -> iall_doneb s = true -> Outcome n stop (map wk (iws s)).
Proof. intros Hr [sc ->] Hd. apply imrun_outcome; [exact Hr|now apply iall_doneb_spec]. Qed.

Lemma shift_res_0 r : shift_res 0 r = r.
Proof. destruct r as [| | | |[[i v]|]| | |]; reflexivity. Qed.

(** The extracted function itself: whenever [exec] took its parallel branch, completed and did not
    panic -- indexed or iterator source, micro- or macro-schedule, with or without eager sites,
    whatever settings [Runner::new] resolved -- its value is the value of its sequential branch for
    the same computation. *)
Theorem exec_parallel_value (c : case) :
  c_panic c = None -> c_pre c = 0 ->
  (kind_of (c_p c) = KMap -> forall x, length (yields (trace (c_p c) x)) = 1) ->
  (forall f, red_family (c_term c) = Some f ->
     (forall a b c0, f (f a b) c0 = f a (f b c0)) /\ (forall a b, f a b = f b a)) ->
  o_sequential (exec c) = false -> o_complete (exec c) = true -> o_result (exec c) <> RPanic ->
  req (o_result (exec c)) (c_seqval c).
Proof.
  intros Hpanic Hpre Hone Hop. unfold exec. cbn [o_sequential o_complete o_result].
  intros Hs. rewrite Hs, Hpre, shift_res_0. revert Hs.
  (* [exec0 c] is named [o] so that the one unfolding happens in one place, the equation *)
  remember (exec0 c) as o eqn:E.
  unfold exec0 in E. fold (c_st c) in E. fold (c_p c) in E.
  rewrite Hpanic, Hpre in E. cbn [hits Nat.min] in E.
  destruct (_ || empty_collect _ _).
  { (* the sequential branch says [o_sequential = true] *)
    destruct (finish_seq _ _ _ _). subst o. discriminate. }
  (* without a runner the result is [RPanic] *)
  destruct (runner_new _ _ _ _) as [r|] eqn:Er; [|subst o; intros _ _ []; reflexivity].
  pose proof (runner_new_pos _ _ _ _ _ Er) as Hr.
  rewrite <- (proj1 (runner_new_inv _ _ _ _ _ Er)) in E.
  replace (if (ps_runs (c_st c) =? 0)%nat then 0%nat else 0%nat) with 0%nat in E
    by (destruct (_ =? _)%nat; reflexivity).
  (* whichever of its four ways [exec0] drives a machine (indexed or iterator source, micro-schedule
     completed by round robin or macro-schedule), the state it reaches is the end of a run under
     some micro-schedule, so its workers have the [Outcome] shape *)
  destruct (c_iter c && _); subst o; cbn [o_sequential o_complete o_result]; intros _ Hd;
    rewrite Hd.
  - destruct (iany_dead _); [intros []; reflexivity|]. intros _.
    apply finish_of_outcome; [assumption..|]. eapply ireached_outcome; [exact Hr| |exact Hd].
    destruct (c_macro c); [eexists; apply imacro_run_is_run|apply icomplete_is_irun].
  - destruct (any_dead _); [intros []; reflexivity|]. intros _.
    apply finish_of_outcome; [assumption..|]. eapply reached_outcome; [exact Hr| |exact Hd].
    destruct (c_macro c); [eexists; apply macro_run_is_run|apply complete_is_run].
Qed.

Theorem exec_value (c : case) :
  c_panic c = None -> c_pre c = 0 -> c_macro c = false -> c_iter c = false ->
  (forall task len r, runner_new (ps_params (c_st c)) task len (c_avail c) = Some r -> runner_wf r) ->
  (kind_of (c_p c) = KMap -> forall x, length (yields (trace (c_p c) x)) = 1) ->
  (forall f, red_family (c_term c) = Some f ->
     (forall a b c0, f (f a b) c0 = f a (f b c0)) /\ (forall a b, f a b = f b a)) ->
  o_sequential (exec c) = false -> o_complete (exec c) = true -> o_result (exec c) <> RPanic ->
  req (o_result (exec c)) (c_seqval c).
Proof. intros Hpanic Hpre _ _ _. now apply exec_parallel_value. Qed.
