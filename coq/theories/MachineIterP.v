(** MachineIterP: invariants of the iterator-source machine for every schedule:
    mutual exclusion on the user's iterator, true positions (a reader that started at [t] receives
    exactly the positions [t, t+got)), the partition of [0, front) among the workers -- and
    hence the same [Outcome] the kernel theorems are proved from.

    As in MachineP.v, [iwstep_rel] / [istep_rel] say once what a micro-step is; every invariant of
    this machine (here, in TerminationIter.v, ExactChunksIter.v) is proved by case analysis on
    them.  A worker's step is a stutter when [iw_enabled] is false ([IS_stutter]).  Processing a held
    element is [MachineP.process]; the spawner moves by [MachineP.sp_move].
    What a worker's micro-step preserves is said in two parts: [iwstep_IW] for the worker itself,
    [iwstep_gate] for gate, frontier and the readers. *)
From OrxPar Require Import Base Machine MachineP MachineIter.
Set Implicit Arguments.

(** the phase a kernel-side phase stands for, outside the handle protocol *)
Definition unconv (p : phase) : iphase :=
  match p with
  | Ready => IReady | Holding b k => IHolding b k | Found => IFound | Done => IDone | Dead => IDead
  end.

Lemma conv_unconv p : conv (unconv p) = p.
Proof. now destruct p. Qed.

Section IterInv.
Variable srclen : nat.
Variable known : bool.
Variable ordered : bool.
Variable stop : nat -> bool.
Variable panics : nat -> bool.
Variable dospawn : nat -> option nat -> bool.
Variable nextc : nat -> option nat -> option nat.

Notation iwstep := (iwstep srclen ordered stop panics).
Notation istep := (istep srclen known ordered stop panics dospawn nextc).
Notation irun := (irun srclen known ordered stop panics dospawn nextc).
Notation nostop := (nostop stop panics).
Notation stopped := (stopped stop panics).
Notation halt := (halt stop panics).

(** the worker's step is not a stutter: it is not finished, and if it waits for the handle, the gate
    lets it in (its ticket is shown, or anybody may enter) or is closed for good; the worker case
    of [TerminationIter.ienabled] is this, written out *)
Definition iw_enabled (g : gate) (w : iworker) : bool :=
  match iph w with
  | IDone | IDead => false
  | ITicket tk => match g with
                  | Open n => if ordered then n =? tk else true
                  | Busy => false
                  | Closed => true
                  end
  | _ => true
  end.

Inductive iwstep_rel (c : nat) (g : gate) (f : nat) (sk : bool) (w : iworker)
  : nat -> gate -> nat -> bool -> iworker -> Prop :=
| IS_ticket : iph w = IReady ->
    iwstep_rel c g f sk w (c + icsize w) g f sk (setph w (ITicket c))
| IS_acquire t n : iph w = ITicket t -> g = Open n -> (ordered = true -> n = t) ->
    iwstep_rel c g f sk w c Busy f sk (setph w (IReading (if ordered then t else f) 0))
| IS_closed t : iph w = ITicket t -> g = Closed ->
    iwstep_rel c g f sk w c g f sk (setph w IDone)
| IS_read t got : iph w = IReading t got -> got < icsize w -> f < srclen ->
    iwstep_rel c g f sk w c g (S f) sk (setph w (IReading t (S got)))
| IS_release t got : iph w = IReading t got -> icsize w <= got \/ srclen <= f ->
    iwstep_rel c g f sk w
      c (match g with Busy => if got =? icsize w then Open (t + icsize w) else Closed | o => o end)
      f sk (mkIW (icsize w) (IHolding t got) (iseen w) (iaband w) (ipulls w ++ [(t, got)]))
| IS_process b k p' sn' ab' : iph w = IHolding b k ->
    process stop panics b (iseen w) (iaband w) k p' sn' ab' ->
    iwstep_rel c g f sk w c g f sk (mkIW (icsize w) (unconv p') sn' ab' (ipulls w))
| IS_skip : iph w = IFound -> iwstep_rel c g f sk w c Closed f true (setph w IDone)
| IS_stutter : iw_enabled g w = false -> iwstep_rel c g f sk w c g f sk w.

Lemma iwstep_cases c g f sk w :
  let '(c', g', f', sk', w') := iwstep c g f sk w in iwstep_rel c g f sk w c' g' f' sk' w'.
Proof.
  pose proof (@IS_stutter c g f sk w) as Hst. unfold iw_enabled in Hst.
  (* [IDone] and [IDead] are stutters, as are the waiting cases of [ITicket]: [auto] from [Hst] *)
  unfold MachineIter.iwstep. destruct (iph w) as [|t|t got|b k| | |] eqn:E; auto.
  - (* IReady *) now constructor.
  - (* ITicket *) destruct g as [n| |]; [|auto|now apply IS_closed with t].
    pose proof (@IS_acquire c (Open n) f sk w t n E eq_refl) as Ha.
    destruct ordered; [destruct (Nat.eqb_spec n t)|]; auto. now apply Ha.
  - (* IReading *) destruct (Nat.ltb_spec got (icsize w)); [destruct (Nat.ltb_spec f srclen)|];
      (now apply IS_read) || (apply IS_release; auto).
  - (* IHolding *)
    pose proof (fun p' sn' ab' => @IS_process c g f sk w b k p' sn' ab' E) as H.
    destruct k as [|k]; [exact (H _ _ _ (P_empty _ _ _ _ _))|].
    pose proof (@P_halt stop panics b (iseen w) (iaband w) k) as Hh.
    pose proof (@P_next stop panics b (iseen w) (iaband w) k) as Hn. unfold MachineP.halt in Hh, Hn.
    destruct (panics b); [|destruct (stop b); [|destruct k]];
      exact (H _ _ _ (Hh eq_refl)) || exact (H _ _ _ (Hn eq_refl)).
  - (* IFound *) now constructor.
Qed.

Inductive istep_rel (s : isys) : nat -> isys -> Prop :=
| IT_spawner new ph' cu :
    new = [] \/ new = [ifresh (icur s)] -> cu = icur s \/ (exists n h, nextc n h = Some cu) ->
    sp_move dospawn (length (iws s)) (isph s) (length new) ph' ->
    istep_rel s 0 (mkIS (ictr s) (igate s) (ifront s) (iskipped s) (iws s ++ new) ph' cu)
| IT_absent i : nth_error (iws s) i = None -> istep_rel s (S i) s
| IT_worker l1 w l2 c g f sk w' :
    iws s = l1 ++ w :: l2 ->
    iwstep_rel (ictr s) (igate s) (ifront s) (iskipped s) w c g f sk w' ->
    istep_rel s (S (length l1)) (mkIS c g f sk (l1 ++ w' :: l2) (isph s) (icur s)).

Lemma istep_cases s t : istep_rel s t (istep s t).
Proof.
  destruct t as [|i]; cbn [MachineIter.istep].
  - pose proof (@IT_spawner s []) as H0. pose proof (@IT_spawner s [ifresh (icur s)]) as H1.
    rewrite app_nil_r in H0. unfold MachineIter.isstep. destruct (isph s) eqn:Ep.
    + (* SpLoop *) destruct (dospawn _ _) eqn:E; [apply H1|apply H0]; eauto using sp_move.
    + (* SpLag *) destruct (nextc _ _) eqn:E; apply H0; eauto using sp_move.
    + (* SpFinal *) apply H1; eauto using sp_move.
    + (* SpDone; [s] by its fields: the step of a spawner that is done is [s] itself *)
      destruct s; cbn in *; subst. apply H0; auto. apply M_done.
  - destruct (nth_error (iws s) i) as [w|] eqn:E; [|now constructor].
    apply nth_error_split in E as (l1 & l2 & E & <-).
    pose proof (iwstep_cases (ictr s) (igate s) (ifront s) (iskipped s) w) as W.
    destruct (iwstep _ _ _ _ w) as [[[[c g] f] sk] w']. rewrite E, upd_app_here.
    now apply IT_worker with w.
Qed.

Definition own (w : iworker) : list nat := owned (wk w).

Definition reading_range (w : iworker) : list nat :=
  match iph w with IReading t got => seq t got | _ => [] end.

Record IW (w : iworker) : Prop := {
  IW_hist : own w = chunks_of (ipulls w) ++ reading_range w;
  IW_incr : incr (own w);
  IW_cs : 0 < icsize w;
  IW_stop : nostop (wk w) \/ exists m, stopped (wk w) m
}.

(** a reader that started at [t] and has read [got] elements sits exactly at the frontier *)
Definition RD (f : nat) (w : iworker) : Prop :=
  forall t got, iph w = IReading t got -> f = t + got /\ got <= icsize w.

Lemma readers_app a b : readers (a ++ b) = readers a + readers b.
Proof. unfold readers. rewrite filter_app, app_length. reflexivity. Qed.
Lemma readers_cons w l : readers (w :: l) = readers [w] + readers l.
Proof. apply (readers_app [w]). Qed.
Lemma readers_mid l1 w l2 : readers (l1 ++ w :: l2) = readers l1 + readers l2 + readers [w].
Proof. rewrite readers_app, readers_cons. lia. Qed.

Lemma readers_one w : readers [w] = match iph w with IReading _ _ => 1 | _ => 0 end.
Proof. unfold readers, is_reading. cbn. now destruct (iph w). Qed.

Lemma RD_notreading f w : is_reading w = false -> RD f w.
Proof. unfold is_reading. intros H t got E. now rewrite E in H. Qed.

Lemma readers0_RD l f : readers l = 0 -> Forall (RD f) l.
Proof.
  induction l as [|w t IH]; constructor; rewrite readers_cons in H.
  - apply RD_notreading. rewrite readers_one in H. unfold is_reading. now destruct (iph w).
  - apply IH. lia.
Qed.

Lemma own_phase w : own w = iseen w ++ match iph w with IReading t k | IHolding t k => seq t k | _ => [] end ++ iaband w.
Proof. unfold own, owned, pending. cbn. now destruct (iph w). Qed.

Lemma nostop_setph w p : nostop (wk w) -> conv p <> Found -> conv p <> Dead -> nostop (wk (setph w p)).
Proof. intros (H1 & H2 & _ & _) Hf Hd. unfold nostop. auto. Qed.

Lemma iwstep_gate_closed c g f sk w c' g' f' sk' w' :
  iwstep_rel c g f sk w c' g' f' sk' w' -> g = Closed -> g' = Closed.
Proof. intros W ->. now destruct W. Qed.

Lemma iwstep_stopped c g f sk w c' g' f' sk' w' :
  iwstep_rel c g f sk w c' g' f' sk' w' -> forall m, stopped (wk w) m -> stopped (wk w') m.
Proof.
  intros W m Hst. pose proof (stopped_halted Hst) as H. cbn in H.
  destruct W as [E|t n E Eg Hn|t E Eg|t got E Hg Hfs|t got E Hg|b k p' sn' ab' E P|E|Hs]; auto;
    rewrite E in H; try discriminate.
  apply stopped_done with (w := wk w); auto. cbn. now rewrite E.
Qed.

(** what one worker micro-step does to the worker, in terms of the state before it *)
Lemma iwstep_IW c g f sk w c' g' f' sk' w' :
  iwstep_rel c g f sk w c' g' f' sk' w' ->
  IW w -> RD f w -> (forall x, In x (own w) -> x < f) ->
  IW w' /\ own w' = own w ++ seq f (f' - f) /\ (sk' = true -> sk = true \/ exists m, stopped (wk w') m).
Proof.
  intros W HW Hrd Hlt. pose proof (iwstep_stopped W) as Hst. pose proof HW as [Wh Wi Wc Ws].
  pose proof (active_nostop Ws) as N.
  (* on a worker given by its fields, what it owns and what the kernels see of it compute: where
     the step leaves them as they are, the parts of [IW w'] are those of [IW w] *)
  destruct w as [cs p sn ab pl].
  destruct W as [E|t n E Eg Hn|t E Eg|t got E Hg Hfs|t got E Hg|b k p' sn' ab' E P|E|Hs];
    rewrite ?Nat.sub_diag, ?app_nil_r; auto; cbn [iph] in E; subst p.
  - (* IS_ticket *)
    split; [constructor; auto|split; auto].
  - (* IS_acquire *)
    split; [constructor; auto|split; auto]. left. apply nostop_setph; auto; easy.
  - (* IS_closed: the pull returns nothing *)
    split; [constructor; auto|split; auto]. left. apply nostop_setph; auto; easy.
  - (* IS_read *)
    destruct (N eq_refl) as (_ & Ha & _). cbn in Ha. subst ab.
    destruct (Hrd t got eq_refl) as [-> _].
    replace (S (t + got) - (t + got)) with 1 by lia. set (w := mkIW _ _ _ _ _) in *.
    assert (Eo : own (setph w (IReading t (S got))) = own w ++ [t + got]).
    { rewrite !own_phase. unfold w. cbn [setph iph iseen iaband].
      now rewrite !app_nil_r, seq_S, app_assoc. }
    split; [constructor; auto|split; auto]; rewrite ?Eo.
    + rewrite Wh. unfold reading_range, w. cbn [setph iph ipulls]. now rewrite seq_S, app_assoc.
    + apply incr_app; auto; [repeat constructor|]. intros x y Hx [<-|[]]. auto.
    + left. apply nostop_setph; auto; easy.
  - (* IS_release: the pull is recorded *)
    split; [constructor; auto|split; auto]. cbn [ipulls]. rewrite chunks_of_app.
    cbn.
    now rewrite !app_nil_r.
  - (* IS_process *)
    destruct (N eq_refl) as (Hs & Ha & _). pose proof (process_owned cs pl P) as Eo.
    pose proof (process_stop cs pl P Hs Ha) as Hst'.
    split; [constructor|split; auto]; unfold own, wk in *;
      cbn [icsize iph iseen iaband ipulls] in *;
      rewrite ?conv_unconv, ?Eo; auto.
    cbn in Wh |- *. rewrite Wh. now destruct p'.
  - (* IS_skip *)
    destruct Ws as [(_ & _ & H & _)|[m Hm]]; [easy|]. split; [constructor; eauto|split; eauto].
Qed.

(** what the gate says about the frontier and about [r], the number of workers inside the user's
    iterator; [I_open], [I_busy], [I_closed] and [I_cl_front] of [IGInv] below are this at
    [readers (iws s)] ([gate_ok_spec]) *)
Definition gate_ok (g : gate) (f : nat) (sk : bool) (r : nat) : Prop :=
  match g with
  | Open n => n = f /\ r = 0
  | Busy => r = 1
  | Closed => r <= 1 /\ (sk = false -> f = srclen)
  end.

Lemma gate_ok_spec g f sk r : gate_ok g f sk r <->
  (forall n, g = Open n -> n = f /\ r = 0) /\ (g = Busy -> r = 1) /\ (g = Closed -> r <= 1) /\
  (g = Closed -> sk = false -> f = srclen).
Proof.
  destruct g as [n| |]; cbn; (split; [intros H; repeat apply conj; try easy|]).
  - (* Open n, left to right: the clause for [Open] *) now intros n0 [= <-].
  - intros (Ho & _). auto.
  - intros (_ & Hb & _). auto.
  - intros (_ & _ & Hc & Hcf). auto.
Qed.

(** what one worker micro-step does to gate and frontier; [ro] is the number of other workers
    inside the user's iterator *)
Lemma iwstep_gate c g f sk w c' g' f' sk' w' ro :
  iwstep_rel c g f sk w c' g' f' sk' w' ->
  RD f w -> f <= srclen -> gate_ok g f sk (ro + readers [w]) -> (iph w = IDone -> g = Closed) ->
  RD f' w' /\ f <= f' <= srclen /\ (f <> f' -> ro = 0) /\ gate_ok g' f' sk' (ro + readers [w']) /\
  (iph w' = IDone -> g' = Closed).
Proof.
  intros W Hrd Hf Hg Hdn. rewrite !readers_one in *.
  destruct W as [E|t n E Eg Hn|t E Eg|t got E Hg' Hfs|t got E Hg'|b k p' sn' ab' E P|E|Hs];
    cbn [setph iph icsize] in *; rewrite ?E in *;
      try (now repeat apply conj; auto using RD_notreading).
  (* [IS_ticket], [IS_closed] and [IS_stutter] touch neither gate nor frontier and are done *)
  - (* IS_acquire: the gate was open at the frontier *)
    subst g. destruct Hg as [-> Hr].
    replace (if ordered then t else f) with f by (destruct ordered; auto).
    repeat apply conj; try easy; cbn; try lia. intros t0 got [= <- <-]. lia.
  - (* IS_read: it holds the gate, which is busy, or was closed under it *)
    destruct (Hrd t got E) as [-> _]. split; [intros t0 g0 [= <- <-]; cbn [setph icsize]; lia|].
    destruct g as [n| |]; cbn in Hg |- *; [lia| |destruct Hg as [Hr Hs]]; repeat apply conj;
      try easy; try lia.
    intros Es. specialize (Hs Es). lia.
  - (* IS_release: the gate opens again only after a full chunk *)
    destruct (Hrd t got E) as [-> Hgot]. split; [now apply RD_notreading|].
    destruct g as [n| |]; cbn in Hg; [lia|destruct (Nat.eqb_spec got (icsize w)) as [->|]|];
      repeat apply conj; try easy; lia.
  - (* IS_process *)
    pose proof (process_not_done P) as Hd.
    destruct p'; easy.
  - (* IS_skip *)
    destruct g; cbn in Hg; repeat apply conj; auto using RD_notreading; lia.
Qed.

Variable maxt : nat.

Record IGInv (s : isys) : Prop := {
  I_perm : Permutation (flat_map own (iws s)) (seq 0 (ifront s));
  I_front : ifront s <= srclen;
  I_open : forall n, igate s = Open n -> n = ifront s /\ readers (iws s) = 0;
  I_busy : igate s = Busy -> readers (iws s) = 1;
  I_closed : igate s = Closed -> readers (iws s) <= 1;
  I_rd : Forall (RD (ifront s)) (iws s);
  I_cl_front : igate s = Closed -> iskipped s = false -> ifront s = srclen;
  I_done : (exists w, In w (iws s) /\ iph w = IDone) -> igate s = Closed;
  I_w : Forall IW (iws s);
  I_sk : iskipped s = true -> exists w m, In w (iws s) /\ stopped (wk w) m;
  I_cur : 0 < icur s;
  I_sp : match isph s with SpDone => 1 <= length (iws s) <= maxt | _ => length (iws s) + 1 <= maxt end
}.

(** what the lemmas about one worker's step ([iwstep_claims], [iwstep_decreases], [iwstep_EW], …)
    assume of the stepping worker, from the invariant *)
Lemma worker_view s l1 w l2 : IGInv s -> iws s = l1 ++ w :: l2 ->
  RD (ifront s) w /\ 0 < icsize w /\ (forall n t got, igate s = Open n -> iph w <> IReading t got).
Proof.
  intros G E. pose proof (I_rd G) as Hr. pose proof (I_w G) as Hw. pose proof (I_open G) as Ho.
  rewrite E, ?readers_mid in *. split; [eapply Forall_elt; eauto|].
  split; [apply (IW_cs (Forall_elt _ _ _ Hw))|].
  intros n t got En Ew. destruct (Ho n En) as [_ H]. apply Nat.eq_add_0 in H as [_ H].
  now rewrite readers_one, Ew in H.
Qed.

Lemma ifresh_IW c : 0 < c -> IW (ifresh c).
Proof. intros Hc. constructor; auto; [constructor|]. left. easy. Qed.

Lemma RD_others f f' l : (f <> f' -> readers l = 0) -> Forall (RD f) l -> Forall (RD f') l.
Proof. destruct (Nat.eq_dec f f') as [->|]; auto using readers0_RD. Qed.

Lemma IGInv_exclusion s : IGInv s -> readers (iws s) <= 1.
Proof.
  intros G. destruct (igate s) eqn:Eg;
    [destruct (I_open G Eg)|rewrite (I_busy G Eg)|apply (I_closed G Eg)]; lia.
Qed.

Hypothesis dospawn_bound : forall n h, dospawn n h = true -> n + 2 <= maxt.
Hypothesis nextc_pos : forall n h c, nextc n h = Some c -> 0 < c.
Hypothesis maxt_pos : 1 <= maxt.

Lemma istep_IGInv s t : IGInv s -> IGInv (istep s t).
Proof.
  intros G. destruct (istep_cases s t) as [new ph' cu Hn Hcu M|i|l1 w l2 c g f sk w' E W];
    [|exact G|].
  { destruct G as [Gp Gf Go Gb Gc Gr Gcf Gd Gw Gk Gu Gs].
    apply (sp_move_bound dospawn_bound) in M; auto. rewrite <- app_length in M.
    assert (0 < cu) by (destruct Hcu as [->|(n & h & Hcu)]; eauto).
    destruct Hn as [-> | ->]; [rewrite app_nil_r in M; now constructor; cbn; rewrite ?app_nil_r|].
    constructor; cbn [ictr igate ifront iskipped iws isph icur]; auto;
      rewrite ?readers_app, ?Nat.add_0_r; auto.
    - (* I_perm *) rewrite flat_map_app. now rewrite app_nil_r.
    - (* I_rd *) apply Forall_app. split; auto. constructor; [now apply RD_notreading|constructor].
    - (* I_done *)
      intros (w & Hw & Hd). apply in_app_or in Hw as [Hw|[<-|[]]]; [eauto|discriminate].
    - (* I_w *) apply Forall_app. auto using ifresh_IW.
    - (* I_sk *)
      intros Hs. destruct (Gk Hs) as (w & m & Hw & Hm). exists w, m. auto using in_or_app. }
  destruct G as [Gp Gf Go Gb Gc Gr Gcf Gd Gw Gk Gu Gs]. rewrite E in *.
  rewrite readers_mid in Go, Gb, Gc.
  destruct (iwstep_IW W (Forall_elt _ _ _ Gw) (Forall_elt _ _ _ Gr)
              (fun x => flat_map_seq_lt own Gp (in_elt w l1 l2))) as (HW' & Eo & Hsk).
  destruct (iwstep_gate (readers l1 + readers l2) W (Forall_elt _ _ _ Gr) Gf)
    as (Hrd' & [Hf1 Hf2] & Hro & Hg' & Hdn).
  { apply gate_ok_spec; auto. }
  { intros Hd. apply Gd. eauto using in_elt. }
  apply gate_ok_spec in Hg' as (Go' & Gb' & Gc' & Gcf'). pose proof (iwstep_gate_closed W) as Hcl.
  constructor; cbn [ictr igate ifront iskipped iws isph icur]; rewrite ?readers_mid; auto.
  - (* I_perm *) rewrite (flat_map_mid_perm own l1 l2 Eo), Gp, <- seq_app.
    now replace (ifront s + (f - ifront s)) with f by lia.
  - (* I_rd: when the frontier moves, nobody else is reading *)
    apply Forall_app in Gr as [H1 H2]. inversion H2. apply Forall_app.
    split; [|constructor; auto]; eapply RD_others; eauto; intros Hne; specialize (Hro Hne); lia.
  - (* I_done *) intros (x & Hx & Hxd). apply in_mid_swap with (w := w) in Hx as [->|Hx]; eauto.
  - (* I_w *) eauto using Forall_mid_swap.
  - (* I_sk *) intros Hs. destruct (Hsk Hs) as [Hsk0|[m Hm]]; [|eauto using in_elt].
    destruct (Gk Hsk0) as (x & m & Hx & Hm).
    apply in_mid_swap with (w := w') in Hx as [->|Hx]; eauto using in_elt, iwstep_stopped.
  - (* I_sp *) now rewrite app_length in *.
Qed.

Theorem irun_IGInv s sched : IGInv s -> IGInv (irun s sched).
Proof. apply run_inv. apply istep_IGInv. Qed.

(** for an invariant of this machine whose preservation needs [IGInv] *)
Lemma irun_inv (P : isys -> Prop) : (forall s t, IGInv s -> P s -> P (istep s t)) ->
  forall s sched, IGInv s -> P s -> P (irun s sched).
Proof.
  intros H s sched G HP. apply (run_inv istep (fun s => IGInv s /\ P s)); auto.
  intros s0 t [G0 P0]. auto using istep_IGInv.
Qed.

Lemma iinit_IGInv c0 : 0 < c0 -> IGInv (iinit c0).
Proof.
  intros Hc. constructor; cbn; auto; try lia; try easy.
  - now intros n [= <-].
  - now intros (w & Hw & _).
Qed.

(** C05: at most one thread is inside the user's iterator, in every reachable state *)
Theorem mutual_exclusion c0 sched : 0 < c0 -> readers (iws (irun (iinit c0) sched)) <= 1.
Proof. intros Hc. now apply IGInv_exclusion, irun_IGInv, iinit_IGInv. Qed.

(** C05: a reader's elements are the source's elements at the frontier: the reader that started
    at [t] (its ticket, with the ordered handle) and has read [got] elements sits exactly at
    position [t + got] *)
Theorem reader_positions c0 sched w t got : 0 < c0 ->
  In w (iws (irun (iinit c0) sched)) -> iph w = IReading t got ->
  ifront (irun (iinit c0) sched) = t + got.
Proof.
  intros Hc Hw Hp. pose proof (irun_IGInv sched (iinit_IGInv Hc)) as G.
  now destruct (Forall_In (I_rd G) Hw t got Hp).
Qed.

(** a completed panic-free run over an iterator source looks to the kernels exactly like a run
    over an indexed source *)
Theorem ifinal_outcome s : IGInv s -> iall_done s -> (forall i, panics i = false) ->
  Outcome srclen halt (map wk (iws s)).
Proof.
  intros [Gp Gf Go Gb Gc Gr Gcf Gd Gw Gk Gu Gs] [Hsp Hfin] Hnp. rewrite Hsp in Gs.
  rewrite Forall_forall in Gw.
  assert (Hdone : forall w, In w (iws s) -> iph w = IDone).
  { intros w Hw. destruct (Hfin w Hw) as [H|H]; auto.
    destruct (dead_panicked (IW_stop (Gw w Hw))) as [i Hi]; [cbn; now rewrite H|].
    now rewrite Hnp in Hi. }
  destruct (iws s) as [|w0 t]; [cbn in Gs; lia|].
  apply outcome_from_facts with (fr := ifront s) (sk := iskipped s) (maxt := maxt); auto.
  (* the premises of [outcome_from_facts], but [fr <= len], in order *)
  - (* non-empty *) easy.
  - (* all done *)
    intros w Hw. apply in_map_iff in Hw as (iw & <- & Hiw). cbn. now rewrite (Hdone iw Hiw).
  - (* partition *) now rewrite flat_map_concat_map, map_map, <- flat_map_concat_map.
  - (* no signal: all is handed out *)
    apply Gcf. apply Gd. exists w0. split; [|apply Hdone]; now left.
  - (* per worker *) intros w Hw. apply in_map_iff in Hw as (iw & <- & Hiw).
    destruct (Gw iw Hiw) as [Wh Wi _ Ws]. unfold reading_range in *.
    now rewrite (Hdone iw Hiw), app_nil_r in Wh.
  - (* the signal comes from a worker that stopped *) intros Hs. destruct (Gk Hs) as (iw & m & Hiw & Hm). exists (wk iw), m. auto using in_map.
Qed.

End IterInv.

Arguments worker_view [srclen stop panics maxt s l1 w l2] _ _.
