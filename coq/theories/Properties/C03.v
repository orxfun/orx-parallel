(** C03 — the reduce family combines every surviving element exactly once. *)
From OrxPar Require Import Base Settings SettingsP Spec Pipeline Machine Kernels Program Master.

(** With an associative and commutative operator, for every schedule (also those in which some
    workers receive nothing, or one receives everything), the per-chunk / per-thread / cross-thread
    combination tree returns the left fold over the sequential chain's output; [None] iff nothing
    survives.  fold / sum / min / max / *_by(_key) are [reduce] with a fixed operator. *)
Theorem C03_reduce : forall (V : Type) (src : list V) (ops : list (op V)) (r : Runner) (sched : list nat)
  (f : V -> V -> V),
  runner_wf r -> all_done (full_run r src ops sched) ->
  (forall a b c, f (f a b) c = f a (f b c)) -> (forall a b, f a b = f b a) ->
  res_red (tpe src ops) f (ws (full_run r src ops sched)) = reduce_list f (seq_chain (stages_of ops) src).
Proof. intros V src ops r sched f Hw Hd Ha Hc. apply gen_reduce; [apply mrun_outcome|..]; auto with runner. Qed.
Print Assumptions C03_reduce.

Theorem C03_none_iff_empty : forall (V : Type) (f : V -> V -> V) (l : list V),
  reduce_list f l = None <-> l = [].
Proof. exact reduce_list_none. Qed.
Print Assumptions C03_none_iff_empty.

Example C03_example :
  let r := mkRunner (Some 5%N) 3%N (RMin 2%N) in
  let ops := [OStage (SFilter 0 Nat.odd)] in
  let s := full_run r [1; 2; 3; 4; 5] ops (round_robin 3 12) in
  all_doneb s = true /\ res_red (tpe [1; 2; 3; 4; 5] ops) Nat.add (ws s) = Some 9.
Proof. vm_compute. split; reflexivity. Qed.

From OrxPar Require Import MachineIter MasterIter.

(** the same over a by-value iterator source (first-come handle of ConIterOfIterX) *)
Theorem C03_reduce_iter : forall (V : Type) (src : list V) (ops : list (op V)) (r : Runner)
  (ordered : bool) (sched : list nat) (f : V -> V -> V),
  runner_wf r -> iall_done (imrun r (tlen src ops) ordered (@nostop) sched) ->
  (forall a b c, f (f a b) c = f a (f b c)) -> (forall a b, f a b = f b a) ->
  res_red (tpe src ops) f (map wk (iws (imrun r (tlen src ops) ordered (@nostop) sched)))
  = reduce_list f (seq_chain (stages_of ops) src).
Proof. intros V src ops r ordered sched f Hw Hd Ha Hc. apply gen_reduce; [apply imrun_outcome|..]; auto with runner. Qed.
Print Assumptions C03_reduce_iter.
