(** C05 — closures run exactly once per element (source mutual exclusion: see DESIGN.md). *)
From OrxPar Require Import Base Settings SettingsP Spec Pipeline PipelineP Machine MachineP Kernels
  Program Master.

(** Full terminals: the calls made while building (eager sites) and while running are together
    a permutation of the sequential chain's calls -- each closure exactly once per element that
    reaches its stage -- for every schedule. *)
Theorem C05_calls_full : forall (V : Type) (src : list V) (ops : list (op V)) (r : Runner) (sched : list nat),
  runner_wf r -> all_done (full_run r src ops sched) ->
  Permutation (ps_clog (build src ops) ++ flat_map (w_calls_full (tpe src ops)) (ws (full_run r src ops sched)))
              (seq_log (stages_of ops) src).
Proof. intros V src ops r sched Hw Hd. apply gen_calls, mrun_outcome; auto with runner. Qed.
Print Assumptions C05_calls_full.

(** The composed closures of every lazy transformation evaluate the new stage exactly where
    the std chain does: the per-element trace grows by exactly that stage. *)
Theorem C05_composition : forall (V : Type) (p : par V) (s : stage V) (x : V),
  eager (kind_of p) (tkind_of s) = false -> trace (compose p s) x = bind (trace p x) (ev [s]).
Proof. exact compose_trace. Qed.
Print Assumptions C05_composition.

(** every position is processed by exactly one worker: no element is fed twice *)
Theorem C05_each_position_once : forall (r : Runner) (len : nat) (stop : nat -> bool) (sched : list nat),
  runner_wf r -> all_done (mrun r len stop sched) -> NoDup (flat_map seen (ws (mrun r len stop sched))).
Proof. intros r len stop sched Hw Hd. apply (O_disjoint (mrun_outcome (runner_wf_pos Hw) len stop sched Hd)). Qed.
Print Assumptions C05_each_position_once.

From OrxPar Require Import MachineIter MasterIter.

(** By-value iterator sources (ConIterOfIter and ConIterOfIterX): in every reachable state of
    every schedule -- whatever is spinning on the handle, whatever panics -- at most one thread is
    inside the user's iterator ... *)
Theorem C05_source_mutual_exclusion : forall (r : Runner) (srclen : nat) (ordered : bool)
  (stop panics : nat -> bool) (sched : list nat),
  runner_wf r -> readers (iws (imrunp r srclen ordered stop panics sched)) <= 1.
Proof. intros r srclen ordered stop panics sched Hw. apply imrun_mutual_exclusion; auto with runner. Qed.
Print Assumptions C05_source_mutual_exclusion.

(** ... the reader that started at [t] (its ticket, with the ordered handle) and has read [got]
    elements sits exactly at source position [t + got]: every element the iterator yields goes to exactly one worker, under its
    true position ... *)
Theorem C05_source_positions : forall (r : Runner) (srclen : nat) (ordered : bool)
  (stop panics : nat -> bool) (sched : list nat) w t got,
  runner_wf r -> In w (iws (imrunp r srclen ordered stop panics sched)) -> iph w = IReading t got ->
  ifront (imrunp r srclen ordered stop panics sched) = t + got.
Proof. intros r srclen ordered stop panics sched w t got Hw. apply imrun_reader_positions; auto with runner. Qed.
Print Assumptions C05_source_positions.

(** ... and full terminals over an iterator source make the sequential calls, up to order. *)
Theorem C05_calls_full_iter : forall (V : Type) (src : list V) (ops : list (op V)) (r : Runner)
  (ordered : bool) (sched : list nat),
  runner_wf r -> iall_done (imrun r (tlen src ops) ordered (@nostop) sched) ->
  Permutation (ps_clog (build src ops) ++
               flat_map (w_calls_full (tpe src ops)) (map wk (iws (imrun r (tlen src ops) ordered (@nostop) sched))))
              (seq_log (stages_of ops) src).
Proof. intros V src ops r ordered sched Hw Hd. apply gen_calls, imrun_outcome; auto with runner. Qed.
Print Assumptions C05_calls_full_iter.
