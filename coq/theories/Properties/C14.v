(** C14 — a panicking closure propagates as a panic and never corrupts memory. *)
From OrxPar Require Import Base Settings SettingsP Machine Termination Own Program MachineIter
  TerminationIter MasterIter.

(** Closures may panic on any set of source positions.  For every schedule: a worker that
    processed a panicking position is dead (its thread unwound), so the scope / join re-raises the
    panic -- the panic is never swallowed ... *)
Theorem C14_panic_propagates : forall (r : Runner) (len : nat) (stop panics : nat -> bool) (sched : list nat) w i,
  runner_wf r -> In w (ws (mrunp r len stop panics sched)) -> In i (seen w) -> panics i = true ->
  ph w = Dead.
Proof. intros r len stop panics sched w i Hw. apply mrunp_panic_propagates; auto with runner. Qed.
Print Assumptions C14_panic_propagates.

(** ... the other workers are not blocked: after any schedule prefix a fair continuation
    completes the run (no hang) ... *)
Theorem C14_no_hang : forall (r : Runner) (len : nat) (stop panics : nat -> bool) (sched : list nat),
  runner_wf r ->
  all_done (mrunp r len stop panics
              (sched ++ round_robin (m_maxt r) (phi len (m_maxt r) (mrunp r len stop panics sched)))).
Proof. intros r len stop panics sched Hw. apply mrunp_completes; assumption. Qed.
Print Assumptions C14_no_hang.

(** the same over by-value iterator sources: a worker that unwinds has released the handle (a
    chain closure runs after the pull), so the waiting ticket holders are served and the run
    completes, for every set of panicking positions and every schedule prefix *)
Theorem C14_no_hang_iter :
  forall (r : Runner) (len : nat) (ordered : bool) (stop panics : nat -> bool) (sched : list nat),
  runner_wf r ->
  iall_done (imrunp r len ordered stop panics
               (sched ++ round_robin (m_maxt r) (iphi len (m_maxt r) (imrunp r len ordered stop panics sched)))).
Proof. intros r len ordered stop panics sched Hw. apply imrunp_completes; assumption. Qed.
Print Assumptions C14_no_hang_iter.

(** ... and while unwinding nothing is dropped twice: every source element is still moved out
    exactly once or dropped in place exactly once (the unwinding worker's chunk iterator drains
    and drops what it had reserved; the iterator's [Drop] drops what nobody reserved). *)
Theorem C14_source_elements_at_most_once : forall (r : Runner) (len : nat) (stop panics : nat -> bool) (sched : list nat),
  runner_wf r -> all_done (mrunp r len stop panics sched) ->
  Permutation (moved_out (mrunp r len stop panics sched)
               ++ skip_drops len (match r_input_len r with Some _ => true | None => false end) stop panics
                             (m_dospawn r) (m_nextc r) (init (m_c0 r)) sched
               ++ final_drop len (mrunp r len stop panics sched))
              (seq 0 len).
Proof. intros r len stop panics sched Hw Hd. apply (mrunp_source_accounting Hw len stop panics sched Hd). Qed.
Print Assumptions C14_source_elements_at_most_once.

(** The partially written ordered bag is guarded ([ManuallyDrop], src/core/map_col.rs): leaving
    by unwinding leaks it, so no never-written slot is ever dropped ... *)
Theorem C14_guarded_bag_drops_nothing : forall written cap i,
  In i (bag_drop_on_unwind true written cap) -> False.
Proof. exact guarded_bag_safe. Qed.
Print Assumptions C14_guarded_bag_drops_nothing.

(** ... whereas the pinned tree's unguarded bag refutes the property (the repaired defect). *)
Theorem C14_unguarded_refuted :
  exists written cap i, In i (bag_drop_on_unwind false written cap) /\ never_written written i.
Proof. exact unguarded_bag_refuted. Qed.
Print Assumptions C14_unguarded_refuted.

(** by-value iterator sources (items are moved out of the user's iterator by [next()]): every
    element yielded so far belongs to exactly one worker and, when all threads have finished, has
    been processed or abandoned (dropped with that worker's buffer) exactly once; what was never
    yielded stays inside the iterator *)
Theorem C14_iterator_elements_at_most_once :
  forall (r : Runner) (len : nat) (ordered : bool) (stop panics : nat -> bool) (sched : list nat),
  runner_wf r -> iall_done (imrunp r len ordered stop panics sched) ->
  Permutation (flat_map iseen (iws (imrunp r len ordered stop panics sched))
               ++ flat_map iaband (iws (imrunp r len ordered stop panics sched)))
              (seq 0 (ifront (imrunp r len ordered stop panics sched)))
  /\ ifront (imrunp r len ordered stop panics sched) <= len.
Proof. intros r len ordered stop panics sched Hw Hd. apply imrunp_source_accounting; assumption. Qed.
Print Assumptions C14_iterator_elements_at_most_once.

(** the second worker panics at position 2 while the first keeps going; everything is accounted
    for *)
Example C14_example :
  let r := mkRunner (Some 8%N) 2%N (RExact 2%N) in
  let panics := fun i => Nat.eqb i 2 in
  let sched := [0;0] ++ round_robin 2 12 in
  let s := mrunp r 8 nostop panics sched in
  all_doneb s = true /\ any_dead s = true /\ map ph (ws s) = [Done; Dead] /\
  moved_out s = [0; 1; 4; 5; 6; 7; 2; 3].
Proof. vm_compute. repeat split. Qed.
