(** C07 — collect_x returns a permutation of the sequential result. *)
From OrxPar Require Import Base Settings SettingsP Spec Pipeline Machine Kernels Program Master.

(** For every computation, every well-formed resolved setting and every schedule: the fragments
    appended by [collect_x] hold, as a multiset, exactly the sequential chain's output. *)
Theorem C07_collect_x : forall (V : Type) (src : list V) (ops : list (op V)) (r : Runner) (sched : list nat),
  runner_wf r -> all_done (full_run r src ops sched) ->
  Permutation (res_colx (tpe src ops) (ws (full_run r src ops sched))) (seq_chain (stages_of ops) src).
Proof. intros V src ops r sched Hw Hd. apply gen_collect_x, mrun_outcome; auto with runner. Qed.
Print Assumptions C07_collect_x.

Example C07_example :
  let r := mkRunner (Some 4%N) 2%N (RMin 1%N) in
  let ops := [OStage (SFlatMap 0 (fun x => [x; x]))] in
  let s := full_run r [7; 8; 9; 7] ops (2 :: 2 :: round_robin 2 12) in
  all_doneb s = true /\ res_colx (tpe [7; 8; 9; 7] ops) (ws s) = [7; 7; 8; 8; 7; 7; 9; 9] /\
  map seen (ws s) = [[0; 1; 3]; [2]].
Proof. vm_compute. repeat split. Qed.

From OrxPar Require Import MachineIter MasterIter.

(** the same over a by-value iterator source *)
Theorem C07_collect_x_iter : forall (V : Type) (src : list V) (ops : list (op V)) (r : Runner)
  (ordered : bool) (sched : list nat),
  runner_wf r -> iall_done (imrun r (tlen src ops) ordered (@nostop) sched) ->
  Permutation (res_colx (tpe src ops) (map wk (iws (imrun r (tlen src ops) ordered (@nostop) sched))))
              (seq_chain (stages_of ops) src).
Proof. intros V src ops r ordered sched Hw Hd. apply gen_collect_x, imrun_outcome; auto with runner. Qed.
Print Assumptions C07_collect_x_iter.
