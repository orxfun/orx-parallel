(** C02 — find / first / any / all answer with the first match in source order. *)
From OrxPar Require Import Base Settings SettingsP Spec Pipeline PipelineP Machine Kernels Program
  Master.

(** [find(q)], [any(q)], [all(q)] run the computation with the predicate and-composed after the
    type's own filter: exactly one more [filter] stage. *)
Theorem C02_predicate_is_a_stage : forall (V : Type) (p : par V) id q x,
  trace (with_predicate p (ufil id q)) x = trace (compose p (SFilter id q)) x.
Proof. exact with_predicate_trace. Qed.
Print Assumptions C02_predicate_is_a_stage.

(** For every schedule -- in particular those in which a later chunk's match is published
    first -- the value found is the first element of the sequential chain's output ... *)
Theorem C02_find_value : forall (V : Type) (src : list V) (ops : list (op V)) (r : Runner) (sched : list nat),
  runner_wf r -> all_done (find_run r src ops sched) ->
  option_map snd (res_find (tpe src ops) (ws (find_run r src ops sched)))
  = hd_error (seq_chain (stages_of ops) src).
Proof. intros V src ops r sched Hw Hd. apply gen_find_value, mrun_outcome; auto with runner. Qed.
Print Assumptions C02_find_value.

(** ... [None] exactly when nothing matches ... *)
Theorem C02_find_none : forall (V : Type) (src : list V) (ops : list (op V)) (r : Runner) (sched : list nat),
  runner_wf r -> all_done (find_run r src ops sched) ->
  (res_find (tpe src ops) (ws (find_run r src ops sched)) = None <-> seq_chain (stages_of ops) src = []).
Proof. intros V src ops r sched Hw Hd. apply gen_find_none, mrun_outcome; auto with runner. Qed.
Print Assumptions C02_find_none.

(** ... and the reported index is the least position whose element produces a match. *)
Theorem C02_find_index : forall (V : Type) (src : list V) (ops : list (op V)) (r : Runner) (sched : list nat) i v,
  runner_wf r -> all_done (find_run r src ops sched) ->
  res_find (tpe src ops) (ws (find_run r src ops sched)) = Some (i, v) ->
  i < tlen src ops /\ hd_error (vals (tpe src ops) i) = Some v /\
  forall j, j < i -> vals (tpe src ops) j = [].
Proof. intros V src ops r sched i v Hw Hd. apply gen_find_index, mrun_outcome; auto with runner. Qed.
Print Assumptions C02_find_index.

(** positions are positions of the original source when no eager site was passed *)
Theorem C02_index_is_source_position : forall (V : Type) (src : list V) (ops : list (op V)),
  ps_runs (build src ops) = 0 -> tsrc src ops = src.
Proof. intros V src ops H. apply (build_lazy src ops H). Qed.
Print Assumptions C02_index_is_source_position.

(** a later-spawned worker holds chunk 0 and the other worker publishes its (later) match first *)
Example C02_example :
  let r := mkRunner (Some 6%N) 2%N (RExact 2%N) in
  let ops := [OStage (SFilter 0 (fun x => Nat.eqb (x mod 5) 0))] in
  let s := find_run r [1; 5; 2; 10; 3; 15] ops
             ([0;0;0] ++ [2;1] ++ [1;1;1;1;1] ++ round_robin 2 10) in
  all_doneb s = true /\ map seen (ws s) = [[2; 3]; [0; 1]] /\
  res_find (tpe [1; 5; 2; 10; 3; 15] ops) (ws s) = Some (1, 5).
Proof. vm_compute. repeat split. Qed.

From OrxPar Require Import MachineIter MasterIter.

(** the same over a by-value iterator source: ticket order = position order *)
Theorem C02_find_iter : forall (V : Type) (src : list V) (ops : list (op V)) (r : Runner)
  (ordered : bool) (sched : list nat),
  runner_wf r -> iall_done (imrun r (tlen src ops) ordered (stop_of (tpar src ops) (tsrc src ops)) sched) ->
  res_find (tpe src ops) (map wk (iws (imrun r (tlen src ops) ordered (stop_of (tpar src ops) (tsrc src ops)) sched)))
  = find_in (tpe src ops) (seq 0 (tlen src ops)).
Proof. intros V src ops r ordered sched Hw Hd. apply gen_find, imrun_outcome; auto with runner. Qed.
Print Assumptions C02_find_iter.

(** a concurrent iterator that was advanced by [k] elements before [into_par()]: the computation
    runs over the rest, and position [i] of the rest is position [k + i] of the original source
    (the index the model's [exec] reports, [shift_res]) *)
Theorem C02_pre_advanced_index : forall (A : Type) (l : list A) (k i : nat),
  nth_error (skipn k l) i = nth_error l (k + i).
Proof. exact pre_advanced_position. Qed.
Print Assumptions C02_pre_advanced_index.

(** REFUTED on one source kind (known finding, DESIGN.md section 6): on such a source the parallel
    kernels report the original position [k + i] (what the concurrent iterator hands out), the
    sequential path enumerates what is left and reports [i]: one call, two indices. *)
From OrxPar Require Import Exec.
Theorem C02_pre_advanced_index_refuted :
  let c nt := mkCase true [0; 1; 2; 3; 4; 5]%Z [DNumThreads nt; DChunkSize 2; DMap (Affine 1 10)]
                     (TFindIx (KeepGe 13)) 16%N [] 50 None false false 2 in
  o_result (exec (c 3%N)) = ROptIx (Some (3, 13%Z)) /\     (* element 3 of the original source *)
  o_result (exec (c 1%N)) = ROptIx (Some (1, 13%Z)).       (* element 1 of what was left *)
Proof. vm_compute. repeat split. Qed.
Print Assumptions C02_pre_advanced_index_refuted.
