(** C11 — ChunkSize::Exact(c): every pull takes exactly c elements (settings, then the machine). *)
From OrxPar Require Import Base Settings SettingsP.
Local Open Scope N_scope.

(** [Exact c] resolves to [c] (clamped to the input length when that is known, so that
    a pull still takes min(c, remaining) elements) ... *)
Theorem C11_exact_resolves : forall params task len avail c r,
  p_chunk params = CSExact c -> 1 <= c <= usize_max -> 1 <= avail <= 2 ^ 16 -> len_wf len ->
  runner_new params task len avail = Some r ->
  r_chunk r = RExact (match len with Some l => N.min c (N.max l 1) | None => c end).
Proof. exact runner_new_exact. Qed.
Print Assumptions C11_exact_resolves.

(** ... and every worker spawned later, whatever progress has been made
    ([num_spawned], [has_more] arbitrary), is handed that same value. *)
Theorem C11_exact_kept : forall r ns h x c, runner_wf r -> hm_wf r h ->
  r_chunk r = RExact x -> next_chunk_size r ns h = Some (Some c) -> c = x.
Proof. exact next_chunk_size_exact. Qed.
Print Assumptions C11_exact_kept.

Example C11_example :
  exists r, runner_new (mkParams (NTMax 8) (CSExact 3)) TCollect (Some 100) 16 = Some r /\
            r_chunk r = RExact 3 /\ next_chunk_size r 5 (Some 40) = Some (Some 3).
Proof. exists (mkRunner (Some 100) 8 (RExact 3)). vm_compute. repeat split. Qed.

Local Close Scope N_scope.
From OrxPar Require Import Machine MachineP Program ExactChunks MachineIter MasterIter
  ExactChunksIter.

(** the machine: with a resolved [Exact x], in every reachable state of every schedule (early exit
    and panics included) every pull of every worker starts at a multiple of [x] and takes exactly
    [x] elements, fewer only if it reaches the end of the source *)
Theorem C11_every_pull_exact : forall (r : Runner) (x : N) (len : nat) (stop panics : nat -> bool)
  (sched : list nat) (w : worker) (b k : nat),
  runner_wf r -> r_chunk r = RExact x ->
  In w (ws (mrunp r len stop panics sched)) -> In (b, k) (pulls w) ->
  csize w = N.to_nat x /\ (exists q, b = q * N.to_nat x) /\ b < len /\ k = Nat.min (N.to_nat x) (len - b).
Proof.
  intros r x len stop panics sched w b k Hw Hx Hin Hp.
  rewrite <- (m_c0_exact _ Hx).
  eapply exact_pulls; eauto.
Qed.
Print Assumptions C11_every_pull_exact.

(** consequently all elements of an aligned block are processed by the same thread *)
Theorem C11_block_one_thread : forall (r : Runner) (x : N) (len : nat) (sched : list nat) (w : worker) (i j : nat),
  runner_wf r -> r_chunk r = RExact x -> all_done (mrun r len (@nostop) sched) ->
  In w (ws (mrun r len (@nostop) sched)) -> In i (seen w) ->
  j < len -> j / N.to_nat x = i / N.to_nat x -> In j (seen w).
Proof.
  intros r x len sched w i j Hw Hx Hd Hin Hi Hj Hb.
  pose proof (mrun_outcome (runner_wf_pos Hw) _ _ _ Hd) as Hout.
  destruct (O_full Hout (fun _ => eq_refl)) as [_ Hs].
  pose proof (proj1 (Forall_forall _ _) Hs w Hin) as E. rewrite E in *.
  rewrite <- (m_c0_exact _ Hx) in Hb.
  eapply exact_block_one_worker; eauto.
Qed.
Print Assumptions C11_block_one_thread.

(** the same over by-value iterator sources, with the ordered and with the first-come handle: a
    pull is shorter than [x] only if it exhausted the user's iterator *)
Theorem C11_every_pull_exact_iter : forall (r : Runner) (x : N) (len : nat) (ordered : bool)
  (stop panics : nat -> bool) (sched : list nat) (w : iworker) (b k : nat),
  runner_wf r -> r_chunk r = RExact x ->
  In w (iws (imrunp r len ordered stop panics sched)) -> In (b, k) (ipulls w) ->
  icsize w = N.to_nat x /\ (exists q, b = q * N.to_nat x) /\ k <= N.to_nat x /\
  (k = N.to_nat x \/ b + k = len).
Proof.
  intros r x len ordered stop panics sched w b k Hw Hx Hin Hp.
  rewrite <- (m_c0_exact _ Hx).
  eapply exact_pulls_iter; eauto.
Qed.
Print Assumptions C11_every_pull_exact_iter.

(** ten elements, Exact(3), three workers under an uneven schedule: the pulls *)
Example C11_example_pulls :
  let r := mkRunner (Some 10%N) 3%N (RExact 3%N) in
  let s := mrun r 10 (@nostop) ([0; 0; 0] ++ [3; 3; 3; 3; 3; 1; 2] ++ round_robin 3 12) in
  all_doneb s = true /\ map pulls (ws s) = [[(0, 3); (9, 1)]; [(3, 3)]; [(6, 3)]].
Proof. vm_compute. split; reflexivity. Qed.
