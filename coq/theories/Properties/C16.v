(** C16 — computations are lazy: nothing runs before the terminal call
    (with the eight known eager sites as the listed exceptions). *)
From OrxPar Require Import Base Spec Pipeline PipelineP.

(** the eager sites of the model are exactly the known list *)
Theorem C16_eager_sites : forall k t, eager k t = true <-> In (k, t) known_eager.
Proof. exact eager_sites. Qed.
Print Assumptions C16_eager_sites.

(** outside them a transformation runs no closure, consumes no element, leaves the source
    untouched *)
Theorem C16_lazy_elsewhere : forall (V : Type) (st : pstate V) (s : stage V),
  ~ In (kind_of (ps_par st), tkind_of s) known_eager ->
  ps_clog (apply_stage st s) = ps_clog st /\ ps_consumed (apply_stage st s) = ps_consumed st /\
  ps_src (apply_stage st s) = ps_src st /\ ps_runs (apply_stage st s) = ps_runs st.
Proof. exact apply_stage_lazy. Qed.
Print Assumptions C16_lazy_elsewhere.

(** num_threads / chunk_size never run anything *)
Theorem C16_setters_lazy : forall (V : Type) (st : pstate V) (o : op V), (forall s, o <> OStage s) ->
  ps_clog (apply_op st o) = ps_clog st /\ ps_consumed (apply_op st o) = ps_consumed st /\
  ps_src (apply_op st o) = ps_src st /\ ps_par (apply_op st o) = ps_par st.
Proof. exact setters_lazy. Qed.
Print Assumptions C16_setters_lazy.

(** a computation built without passing a known site has done nothing at all *)
Theorem C16_nothing_before_terminal : forall (V : Type) (src : list V) (ops : list (op V)),
  ps_runs (build src ops) = 0 ->
  ps_clog (build src ops) = [] /\ ps_consumed (build src ops) = 0 /\ ps_src (build src ops) = src.
Proof. intros V src ops H. destruct (build_lazy src ops H) as (H1 & H2 & H3 & _). auto. Qed.
Print Assumptions C16_nothing_before_terminal.

(** the known finding: at each of the eight sites the whole upstream stage is evaluated while
    the computation is being built *)
Theorem C16_known_sites_are_eager : forall (V : Type) (st : pstate V) (s : stage V),
  In (kind_of (ps_par st), tkind_of s) known_eager ->
  ps_clog (apply_stage st s) = ps_clog st ++ run_log st /\
  ps_consumed (apply_stage st s) = ps_consumed st + length (ps_src st) /\
  ps_src (apply_stage st s) = denote st.
Proof. exact apply_stage_eager. Qed.
Print Assumptions C16_known_sites_are_eager.

(** the full statement of the property is refuted by the faithful model: witness *)
Theorem C16_refuted : exists (src : list nat) (ops : list (op nat)),
  ps_clog (build src ops) <> [] /\ ps_consumed (build src ops) = 2.
Proof.
  exists [1; 2], [OStage (SFilter 0 Nat.even); OStage (SFlatMap 1 (fun x => [x; x]))].
  split; [discriminate|reflexivity].
Qed.
Print Assumptions C16_refuted.
