(** C12 — parameters propagate unchanged through every transformation. *)
From OrxPar Require Import Base Settings SettingsP Spec Pipeline PipelineP.

(** [params()] reports the last values set anywhere in the chain, defaults Auto/Auto, through
    every transformation of every type, eager sites included. *)
Theorem C12_params_last_set : forall (V : Type) (src : list V) (ops : list (op V)),
  ps_params (build src ops) = mkParams (last_threads ops NTAuto) (last_chunk ops CSAuto).
Proof. exact build_params_last. Qed.
Print Assumptions C12_params_last_set.

Theorem C12_stage_keeps_params : forall (V : Type) (st : pstate V) (s : stage V),
  ps_params (apply_op st (OStage s)) = ps_params st.
Proof. intros V st s. apply (apply_op_params st (OStage s)). Qed.
Print Assumptions C12_stage_keeps_params.

(** usize conversions: 0 is Auto, n > 0 is Max(n) / Exact(n) *)
Theorem C12_of_usize : forall n : N,
  nt_of_usize n = (if N.eqb n 0 then NTAuto else NTMax n) /\
  cs_of_usize n = (if N.eqb n 0 then CSAuto else CSExact n).
Proof. intros n. split; reflexivity. Qed.
Print Assumptions C12_of_usize.

Theorem C12_is_sequential : forall p, is_sequential p = true <-> p_threads p = NTMax 1.
Proof. exact is_sequential_iff. Qed.
Print Assumptions C12_is_sequential.

Example C12_example :
  ps_params (build [1; 2] [ONumThreads 3%N; OStage (SFilter 0 Nat.even); OChunkSize 0%N;
                           OStage (SFlatMap 1 (fun x => [x])); ONumThreads 7%N; OChunkMin 5%N])
  = mkParams (NTMax 7%N) (CSMin 5%N).
Proof. reflexivity. Qed.
