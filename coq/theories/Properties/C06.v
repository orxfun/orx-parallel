(** C06 — collect_into appends to, and never disturbs, existing contents. *)
From OrxPar Require Import Base Settings SettingsP Spec Pipeline Machine Kernels Program Master.

(** filtering pipelines: merged results are pushed after the existing elements *)
Theorem C06_collect_into_merge : forall (V : Type) (src : list V) (ops : list (op V)) (r : Runner)
  (sched : list nat) (old : list V),
  runner_wf r -> all_done (full_run r src ops sched) ->
  res_col (tpe src ops) old (ws (full_run r src ops sched)) = old ++ seq_chain (stages_of ops) src.
Proof. intros V src ops r sched old Hw Hd. apply gen_collect_merge, mrun_outcome; auto with runner. Qed.
Print Assumptions C06_collect_into_merge.

(** map-only pipelines: writes at [offset + idx] with [offset = length old]; the existing
    elements stay in place *)
Theorem C06_collect_into_bag : forall (V : Type) (src : list V) (ops : list (op V)) (r : Runner)
  (sched : list nat) (old : list V),
  runner_wf r -> all_done (full_run r src ops sched) ->
  (forall x, length (yields (trace (tpar src ops) x)) = 1) ->
  res_map_col (tpe src ops) old (tlen src ops) (ws (full_run r src ops sched))
  = Some (old ++ seq_chain (stages_of ops) src).
Proof. intros V src ops r sched old Hw Hd H1. apply gen_collect_bag; [apply mrun_outcome|]; auto with runner. Qed.
Print Assumptions C06_collect_into_bag.

Example C06_example :
  let r := mkRunner (Some 4%N) 2%N (RExact 1%N) in
  let ops := [OStage (SMap 0 (fun x => x * 10))] in
  let s := full_run r [1; 2; 3; 4] ops (round_robin 2 14) in
  all_doneb s = true /\
  res_map_col (tpe [1; 2; 3; 4] ops) [100; 200; 300] 4 (ws s) = Some [100; 200; 300; 10; 20; 30; 40].
Proof. vm_compute. split; reflexivity. Qed.
