(** C15 — parameters never change a result or make a computation fail. *)
From OrxPar Require Import Base Settings SettingsP.
Local Open Scope N_scope.

(** (a) The settings arithmetic is total in checked-usize semantics and yields
    positive settings: no overflow, underflow, division by zero; the halving loop
    terminates; the [validate] assertion never fires. *)
Theorem C15_runner_new_total : forall params task len avail,
  1 <= avail <= 2 ^ 16 -> len_wf len -> chunk_wf (p_chunk params) ->
  exists r, runner_new params task len avail = Some r /\ runner_wf r
            /\ r_input_len r = len
            /\ r_max_threads r = N.max (calc_num_threads len avail (p_threads params)) 1
            /\ r_max_threads r <= avail.
Proof. exact runner_new_total. Qed.
Print Assumptions C15_runner_new_total.

Theorem C15_spawn_decisions_total : forall r ns h, runner_wf r -> hm_wf r h ->
  do_spawn r ns h = Some (if r_max_threads r - 1 <=? ns then false else negb (hm_is_no h)) /\
  exists o, next_chunk_size r ns h = Some o /\
            match o with
            | None => True
            | Some c => 1 <= c <= usize_max /\ ns + 1 < r_max_threads r /\
                        (forall x, r_chunk r = RExact x -> c = x) /\
                        (exists k, 1 <= k /\ c = k * r_inner (r_chunk r))
            end.
Proof. intros r ns h Hw Hh. split; [apply do_spawn_total; exact Hw | apply next_chunk_size_total; assumption]. Qed.
Print Assumptions C15_spawn_decisions_total.

(** non-vacuity: a concrete non-trivial configuration meets the hypotheses *)
Example C15_example :
  runner_new (mkParams (NTMax 5) (CSMin 7)) TReduce (Some 1000) 16
  = Some (mkRunner (Some 1000) 5 (RMin 7)).
Proof. vm_compute. reflexivity. Qed.

Local Close Scope N_scope.
From OrxPar Require Import Spec Pipeline Machine MachineIter Program MasterIter Exec ExecP.

(** ... and no parameter setting changes a result: for every terminal of the executable model, every
    computation [p] of the eight types, every source, every well-formed resolved setting [r] (that
    is: every [num_threads] / [chunk_size]) and every schedule, the value the parallel branch
    computes from what the workers did ([finish]) is the value of the sequential branch
    ([finish_seq], i.e. [num_threads(1)]) -- equal up to the order of [collect_x]; reduce-family
    operators associative and commutative; the map-only bag path needs one value per element,
    which holds for map-only computations. *)
Theorem C15_parallel_value_is_sequential_value :
  forall (r : Runner) (p : par Z) (src : list Z) (t : terminal) (sched : list nat),
  runner_wf r ->
  (kind_of p = KMap -> forall x, length (yields (trace p x)) = 1) ->
  (forall f, red_family t = Some f ->
     (forall a b c, f (f a b) c = f a (f b c)) /\ (forall a b, f a b = f b a)) ->
  let stop := if is_find t then stop_of p src else (@nostop) in
  all_done (mrun r (length src) stop sched) ->
  req (finish t (pe_of p src) (length src) (kind_of p) 0 (ws (mrun r (length src) stop sched)))
      (fst (finish_seq t (flat_map (trace p) src) src p)).
Proof. intros r p src t sched Hw H1 Hop stop Hd. apply exec_value_indexed; assumption. Qed.
Print Assumptions C15_parallel_value_is_sequential_value.

Theorem C15_parallel_value_is_sequential_value_iter :
  forall (r : Runner) (p : par Z) (src : list Z) (t : terminal) (ordered : bool) (sched : list nat),
  runner_wf r ->
  (kind_of p = KMap -> forall x, length (yields (trace p x)) = 1) ->
  (forall f, red_family t = Some f ->
     (forall a b c, f (f a b) c = f a (f b c)) /\ (forall a b, f a b = f b a)) ->
  let stop := if is_find t then stop_of p src else (@nostop) in
  iall_done (imrun r (length src) ordered stop sched) ->
  req (finish t (pe_of p src) (length src) (kind_of p) 0 (map wk (iws (imrun r (length src) ordered stop sched))))
      (fst (finish_seq t (flat_map (trace p) src) src p)).
Proof. intros r p src t ordered sched Hw H1 Hop stop Hd. apply exec_value_iter; assumption. Qed.
Print Assumptions C15_parallel_value_is_sequential_value_iter.

(** a filter.map computation over five elements, three workers under round robin (two of them
    receive the chunks) *)
Example C15_example_value :
  let r := mkRunner (Some 5%N) 3%N (RExact 2%N) in
  let p := ps_par (build [1; 2; 3; 4; 5]%Z
                     (to_ops 0 [DFilter (KeepMod 2 1); DMap (Affine 10 0)])) in
  let src := [1; 2; 3; 4; 5]%Z in
  let s := mrun r 5 (@nostop) (round_robin 3 20) in
  all_doneb s = true /\
  finish TCollectVec (pe_of p src) 5 (kind_of p) 0 (ws s) = RList [10; 30; 50]%Z /\
  fst (finish_seq TCollectVec (flat_map (trace p) src) src p) = RList [10; 30; 50]%Z.
Proof. vm_compute. repeat split. Qed.

(** ... stated on the extracted function itself: for every case (indexed source, micro-schedule, no
    injected panic, not pre-advanced) whose settings resolve to a well-formed runner, if [exec]
    took its parallel branch, completed and did not panic, its value is the value its sequential
    branch computes for the same computation *)
Theorem C15_exec_value : forall (c : case),
  c_panic c = None -> c_pre c = 0 -> c_macro c = false -> c_iter c = false ->
  (forall task len r, runner_new (ps_params (c_st c)) task len (c_avail c) = Some r -> runner_wf r) ->
  (kind_of (c_p c) = KMap -> forall x, length (yields (trace (c_p c) x)) = 1) ->
  (forall f, red_family (c_term c) = Some f ->
     (forall a b c0, f (f a b) c0 = f a (f b c0)) /\ (forall a b, f a b = f b a)) ->
  o_sequential (exec c) = false -> o_complete (exec c) = true -> o_result (exec c) <> RPanic ->
  req (o_result (exec c)) (c_seqval c).
Proof. exact exec_value. Qed.
Print Assumptions C15_exec_value.

(** ... and for by-value iterator sources (ticket / gate protocol, no eager site) *)
Theorem C15_exec_value_iter : forall (c : case),
  c_panic c = None -> c_pre c = 0 -> c_macro c = false -> c_iter c = true ->
  ps_runs (c_st c) = 0 ->
  (forall task len r, runner_new (ps_params (c_st c)) task len (c_avail c) = Some r -> runner_wf r) ->
  (kind_of (c_p c) = KMap -> forall x, length (yields (trace (c_p c) x)) = 1) ->
  (forall f, red_family (c_term c) = Some f ->
     (forall a b c0, f (f a b) c0 = f a (f b c0)) /\ (forall a b, f a b = f b a)) ->
  o_sequential (exec c) = false -> o_complete (exec c) = true -> o_result (exec c) <> RPanic ->
  req (o_result (exec c)) (c_seqval c).
Proof. intros c Hpanic Hpre _ _ _ _. now apply exec_parallel_value. Qed.
Print Assumptions C15_exec_value_iter.
