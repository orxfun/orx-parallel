(** C04 — count and for_each visit every surviving element exactly once. *)
From OrxPar Require Import Base Settings SettingsP Spec Pipeline Machine Kernels Program Master.

Theorem C04_count : forall (V : Type) (src : list V) (ops : list (op V)) (r : Runner) (sched : list nat),
  runner_wf r -> all_done (full_run r src ops sched) ->
  res_cnt (tpe src ops) (ws (full_run r src ops sched)) = length (seq_chain (stages_of ops) src).
Proof. intros V src ops r sched Hw Hd. apply gen_count, mrun_outcome; auto with runner. Qed.
Print Assumptions C04_count.

(** [for_each f = map(f).count()]: the calls of the appended stage are, as a multiset, the
    sequential ones (the call log of the whole run is a permutation of the sequential log, and
    the stage [id] occurs in it exactly once per element reaching it). *)
Theorem C04_for_each_calls : forall (V : Type) (src : list V) (ops : list (op V)) (r : Runner) (sched : list nat),
  runner_wf r -> all_done (full_run r src ops sched) ->
  Permutation (ps_clog (build src ops) ++ flat_map (w_calls_full (tpe src ops)) (ws (full_run r src ops sched)))
              (seq_log (stages_of ops) src).
Proof. intros V src ops r sched Hw Hd. apply gen_calls, mrun_outcome; auto with runner. Qed.
Print Assumptions C04_for_each_calls.

Example C04_example :
  let r := mkRunner (Some 5%N) 3%N (RExact 1%N) in
  let ops := [OStage (SFlatMap 0 (fun x => repeat x x)); OStage (SFilter 1 Nat.odd)] in
  let s := full_run r [1; 2; 3; 4; 5] ops (round_robin 3 16) in
  all_doneb s = true /\ res_cnt (tpe [1; 2; 3; 4; 5] ops) (ws s) = 9.
Proof. vm_compute. split; reflexivity. Qed.

From OrxPar Require Import MachineIter MasterIter.

(** the same over a by-value iterator source *)
Theorem C04_count_iter : forall (V : Type) (src : list V) (ops : list (op V)) (r : Runner)
  (ordered : bool) (sched : list nat),
  runner_wf r -> iall_done (imrun r (tlen src ops) ordered (@nostop) sched) ->
  res_cnt (tpe src ops) (map wk (iws (imrun r (tlen src ops) ordered (@nostop) sched)))
  = length (seq_chain (stages_of ops) src).
Proof. intros V src ops r ordered sched Hw Hd. apply gen_count, imrun_outcome; auto with runner. Qed.
Print Assumptions C04_count_iter.
