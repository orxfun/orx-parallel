(** C10 — short-circuit terminals stop consuming input once a match is known. *)
From OrxPar Require Import Base Settings SettingsP Spec Machine Termination Program MachineIter
  TerminationIter MasterIter.

(** (a) every schedule: once [skip_to_end] has happened, a worker's next pull fails and hands
    out nothing -- whatever the remaining input *)
Theorem C10_no_pull_after_signal : forall (r : Runner) (len : nat) (stop : nat -> bool) (sched : list nat)
  i w c' f' sk' w',
  runner_wf r ->
  let s := mrun r len stop sched in
  skipped s = true -> nth_error (ws s) i = Some w -> ph w = Ready ->
  wstep len stop nopanic (ctr s) (front s) (skipped s) w = (c', f', sk', w') ->
  ph w' = Done /\ f' = front s.
Proof.
  intros r len stop sched i w c' f' sk' w' Hw s Hsk Hn Hr Hs.
  exact (@no_pull_after_signal len stop nopanic (m_maxt r) (m_maxt_pos (runner_wf_pos Hw)) s i w c' f' sk' w' (mrunp_SInv r len stop nopanic sched) Hsk Hn Hr Hs).
Qed.
Print Assumptions C10_no_pull_after_signal.

(** (a') every schedule: after the signal the whole run needs at most a number of effective
    steps that depends on the thread bound and on the chunk sizes only (a constant number of
    chunks per thread), not on how much input remains *)
Theorem C10_bounded_work_after_signal : forall (r : Runner) (len : nat) (stop : nat -> bool)
  (sched sched2 : list nat),
  runner_wf r -> skipped (mrun r len stop sched) = true ->
  effective len (match r_input_len r with Some _ => true | None => false end) stop nopanic
            (m_dospawn r) (m_nextc r) (mrun r len stop sched) sched2
  <= 5 * m_maxt r + 3 + sum_list (map (fun w => 2 * csize w + 3) (ws (mrun r len stop sched))).
Proof. intros r len stop sched sched2 Hw Hsk. apply mrun_after_signal; assumption. Qed.
Print Assumptions C10_bounded_work_after_signal.

(** (b) no reachable state is stuck: after any schedule prefix a round-robin continuation
    completes the run (and then C02 gives the answer); no schedule has more than
    [5 * max_threads + 2 + 4 * len] effective steps *)
Theorem C10_fair_continuation_completes : forall (r : Runner) (len : nat) (stop : nat -> bool) (sched : list nat),
  runner_wf r ->
  all_done (mrun r len stop (sched ++ round_robin (m_maxt r) (phi len (m_maxt r) (mrun r len stop sched)))).
Proof. intros r len stop sched Hw. apply mrunp_completes; assumption. Qed.
Print Assumptions C10_fair_continuation_completes.

Theorem C10_effective_steps_bounded : forall (r : Runner) (len : nat) (stop : nat -> bool) (sched : list nat),
  runner_wf r ->
  effective len (match r_input_len r with Some _ => true | None => false end) stop nopanic
            (m_dospawn r) (m_nextc r) (init (m_c0 r)) sched <= 5 * m_maxt r + 2 + 4 * len.
Proof. intros r len stop sched Hw. apply mrun_effective_bounded; assumption. Qed.
Print Assumptions C10_effective_steps_bounded.

(** the same over by-value iterator sources (ticket / gate protocol, ordered or first come):
    whatever the state reached -- tickets waiting, a reader inside its chunk, the early-exit
    signal out -- a fair continuation completes the run: waiting on the handle is never a
    deadlock; and no schedule has more than [9 * max_threads + 2 + 5 * len] effective steps *)
Theorem C10_fair_continuation_completes_iter :
  forall (r : Runner) (len : nat) (ordered : bool) (stop : nat -> bool) (sched : list nat),
  runner_wf r ->
  iall_done (imrunp r len ordered stop nopanic
               (sched ++ round_robin (m_maxt r) (iphi len (m_maxt r) (imrunp r len ordered stop nopanic sched)))).
Proof. intros r len ordered stop sched Hw. apply imrunp_completes; assumption. Qed.
Print Assumptions C10_fair_continuation_completes_iter.

(** ... and once the early-exit signal is out the remaining work depends on the thread bound and
    the chunk sizes only (at most one chunk being read and one chunk held per thread), whatever
    the source still holds -- the clause that matters for unbounded sources *)
Theorem C10_bounded_work_after_signal_iter :
  forall (r : Runner) (len : nat) (ordered : bool) (stop : nat -> bool) (sched sched2 : list nat),
  runner_wf r -> iskipped (imrunp r len ordered stop nopanic sched) = true ->
  ieffective len (match r_input_len r with Some _ => true | None => false end) ordered stop nopanic
             (m_dospawn r) (m_nextc r) (imrunp r len ordered stop nopanic sched) sched2
  <= 9 * m_maxt r + 3
     + sum_list (map (fun w => 6 * icsize w + 8) (iws (imrunp r len ordered stop nopanic sched))).
Proof.
  intros r len ordered stop sched sched2 Hw Hsk.
  apply imrun_after_close; [assumption|]. apply imrun_signal_closes; assumption.
Qed.
Print Assumptions C10_bounded_work_after_signal_iter.

Theorem C10_effective_steps_bounded_iter :
  forall (r : Runner) (len : nat) (ordered : bool) (stop : nat -> bool) (sched : list nat),
  runner_wf r ->
  ieffective len (match r_input_len r with Some _ => true | None => false end) ordered stop nopanic
             (m_dospawn r) (m_nextc r) (iinit (m_c0 r)) sched <= 9 * m_maxt r + 2 + 5 * len.
Proof. intros r len ordered stop sched Hw. apply imrun_effective_bounded; auto with runner. Qed.
Print Assumptions C10_effective_steps_bounded_iter.

(** (c) sequential mode: the trace consumed for an element stops at its first yield *)
Theorem C10_sequential_stops_at_match : forall (V : Type) (l : list (event V)) (v : V),
  snd (upto_yield l) = Some v ->
  exists pre post, l = pre ++ EYield v :: post /\ fst (upto_yield l) = pre ++ [EYield v] /\ yields pre = [].
Proof. exact upto_yield_some. Qed.
Print Assumptions C10_sequential_stops_at_match.

(** a late worker's match is published first; the holder of the true first match finishes
    its chunk, and nobody pulls afterwards *)
Example C10_example :
  let r := mkRunner None 3%N (RExact 2%N) in
  let stop := fun i => Nat.eqb i 1 || Nat.eqb i 4 in
  let s := mrun r 1000 stop ([0;0;0] ++ [1;2;3] ++ [3;3;3] ++ round_robin 3 8) in
  all_doneb s = true /\ skipped s = true /\ map seen (ws s) = [[0; 1]; [2; 3]; [4]] /\ front s = 6.
Proof. vm_compute. repeat split. Qed.

(** iterator source, ordered handle: thread 1 takes ticket 0 and is not scheduled again for a while;
    thread 2 takes ticket 2 and spins on the gate, which shows 0; thread 1 then finds a match in its
    chunk; everybody ends *)
Example C10_example_iter :
  let r := mkRunner None 3%N (RExact 2%N) in
  let stop := fun i => Nat.eqb i 1 in
  let s0 := imrunp r 1000 true stop nopanic ([0;0;0] ++ [1;2;2;2;2]) in
  let s := imrunp r 1000 true stop nopanic
             ([0;0;0] ++ [1;2;2;2;2] ++ round_robin 3 (iphi 1000 3 s0)) in
  map iph (iws s0) = [ITicket 0; ITicket 2] /\ igate s0 = Open 0 /\ iall_doneb s0 = false /\
  iall_doneb s = true /\ iskipped s = true /\ map iseen (iws s) = [[0; 1]; [2; 3]; []].
Proof. vm_compute. repeat split. Qed.
