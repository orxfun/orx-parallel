(** C13 — owned elements are dropped exactly once on all non-panicking paths. *)
From OrxPar Require Import Base Settings SettingsP Spec Pipeline Machine Kernels KernelsP Own
  Program Master MachineIter MasterIter.

(** The owning source: for every schedule, when all threads have finished, every element of the
    source vector has been moved out of the buffer exactly once (processed by a closure, or
    abandoned after an early exit and then taken and dropped by the draining chunk iterator) or
    dropped in place exactly once (by the first [skip_to_end], or by the iterator's [Drop]) --
    never both, never twice, never neither. *)
Theorem C13_source_elements_exactly_once : forall (r : Runner) (len : nat) (stop : nat -> bool) (sched : list nat),
  runner_wf r -> all_done (mrun r len stop sched) ->
  Permutation (moved_out (mrun r len stop sched)
               ++ skip_drops len (match r_input_len r with Some _ => true | None => false end) stop nopanic
                             (m_dospawn r) (m_nextc r) (init (m_c0 r)) sched
               ++ final_drop len (mrun r len stop sched))
              (seq 0 len).
Proof. intros r len stop sched Hw Hd. apply (mrunp_source_accounting Hw len stop nopanic sched Hd). Qed.
Print Assumptions C13_source_elements_exactly_once.

(** The merge: every (key, value) of the per-thread vectors is read out exactly once before the
    vectors are truncated ... *)
Theorem C13_merge_moves_each_value_once : forall (V : Type) (vs : list (list (nat * nat * V))),
  Forall (@ksorted V) vs -> NoDup (map fst (concat vs)) -> Permutation (kmerge vs) (concat vs).
Proof. exact merge_reads_each_once. Qed.
Print Assumptions C13_merge_moves_each_value_once.

(** ... the bag: every position of [offset, offset + len) is written exactly once, so the count
    check passes and the unwrapped vector holds each produced value once, after the untouched
    previous contents ... *)
Theorem C13_bag_slots_written_once : forall (V : Type) (src : list V) (ops : list (op V)) (r : Runner)
  (sched : list nat) (old : list V),
  runner_wf r -> all_done (full_run r src ops sched) ->
  (forall x, length (yields (trace (tpar src ops) x)) = 1) ->
  res_map_col (tpe src ops) old (tlen src ops) (ws (full_run r src ops sched))
  = Some (old ++ seq_chain (stages_of ops) src).
Proof. intros V src ops r sched old Hw Hd H1. apply gen_collect_bag; [apply mrun_outcome|]; auto with runner. Qed.
Print Assumptions C13_bag_slots_written_once.

(** ... and the fragments of collect_x hold every produced value exactly once. *)
Theorem C13_fragments_hold_each_value_once : forall (V : Type) (src : list V) (ops : list (op V)) (r : Runner) (sched : list nat),
  runner_wf r -> all_done (full_run r src ops sched) ->
  Permutation (res_colx (tpe src ops) (ws (full_run r src ops sched))) (seq_chain (stages_of ops) src).
Proof. intros V src ops r sched Hw Hd. apply gen_collect_x, mrun_outcome; auto with runner. Qed.
Print Assumptions C13_fragments_hold_each_value_once.

(** by-value iterator sources (items are moved out of the user's iterator by [next()]): every
    element yielded so far belongs to exactly one worker and, when all threads have finished, has
    been processed or abandoned (dropped with that worker's buffer) exactly once; what was never
    yielded stays inside the iterator *)
Theorem C13_iterator_elements_exactly_once :
  forall (r : Runner) (len : nat) (ordered : bool) (stop : nat -> bool) (sched : list nat),
  runner_wf r -> iall_done (imrunp r len ordered stop nopanic sched) ->
  Permutation (flat_map iseen (iws (imrunp r len ordered stop nopanic sched))
               ++ flat_map iaband (iws (imrunp r len ordered stop nopanic sched)))
              (seq 0 (ifront (imrunp r len ordered stop nopanic sched)))
  /\ ifront (imrunp r len ordered stop nopanic sched) <= len.
Proof. intros r len ordered stop sched Hw Hd. apply imrunp_source_accounting; assumption. Qed.
Print Assumptions C13_iterator_elements_exactly_once.

(** find on a prefix: positions 0, 1 and 3..5 are processed, 2 was pulled by the finder and
    abandoned, 6..9 are dropped in place by skip_to_end *)
Example C13_example :
  let r := mkRunner (Some 10%N) 2%N (RExact 3%N) in
  let stop := fun i => Nat.eqb i 1 in
  let sched := [0;0;0;1;2;1;1;2;1] ++ round_robin 2 6 in
  let s := mrun r 10 stop sched in
  all_doneb s = true /\ map seen (ws s) = [[0; 1]; [3; 4; 5]] /\ map aband (ws s) = [[2]; []] /\
  skip_drops 10 true stop nopanic (m_dospawn r) (m_nextc r) (init (m_c0 r)) sched = [6; 7; 8; 9] /\
  final_drop 10 s = [].
Proof. vm_compute. repeat split. Qed.

(** an iterator source of six elements, two workers, the second finds a match at position 2 while
    holding [2, 4): position 3 is abandoned (dropped with its buffer), everything else is processed;
    all six elements had been yielded by then *)
Example C13_example_iter :
  let r := mkRunner None 2%N (RExact 2%N) in
  let s := imrunp r 6 true (fun i => Nat.eqb i 2) nopanic ([0; 0] ++ round_robin 2 30) in
  iall_doneb s = true /\ map iseen (iws s) = [[0; 1; 4; 5]; [2]] /\ map iaband (iws s) = [[]; [3]] /\ ifront s = 6.
Proof. vm_compute. repeat split. Qed.
