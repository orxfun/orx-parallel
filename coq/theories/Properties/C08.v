(** C08 — NumThreads::Max(n) bounds concurrency; Max(1) runs on the calling thread. *)
From OrxPar Require Import Base Settings SettingsP Spec Machine Kernels Program.
Local Open Scope N_scope.

(** [Max n] resolves to at most [n] threads ... *)
Theorem C08_max_threads : forall params task len avail n r,
  p_threads params = NTMax n -> 1 <= n ->
  runner_new params task len avail = Some r -> r_max_threads r <= n.
Proof. exact runner_new_max_threads. Qed.
Print Assumptions C08_max_threads.
Local Close Scope N_scope.

(** ... and in every reachable state of every schedule the number of workers ever spawned (a
    fortiori the number alive at once, and the number of distinct threads running the chain's
    closures) is at most that many. *)
Theorem C08_workers_bounded : forall (r : Runner) (len : nat) (stop : nat -> bool) (sched : list nat),
  runner_wf r -> length (ws (mrun r len stop sched)) <= m_maxt r.
Proof. intros r len stop sched Hw. apply mrun_threads; auto with runner. Qed.
Print Assumptions C08_workers_bounded.

(** [is_sequential] is true exactly for [Max(1)]; every kernel then takes its [seq_*] branch on
    the calling thread (Exec.exec: no runner, no worker). *)
Theorem C08_sequential_iff : forall p, is_sequential p = true <-> p_threads p = NTMax 1.
Proof. exact is_sequential_iff. Qed.
Print Assumptions C08_sequential_iff.

From OrxPar Require Import MachineIter MasterIter.

(** the same bound over a by-value iterator source *)
Theorem C08_workers_bounded_iter : forall (r : Runner) (srclen : nat) (ordered : bool)
  (stop panics : nat -> bool) (sched : list nat),
  runner_wf r -> length (iws (imrunp r srclen ordered stop panics sched)) <= m_maxt r.
Proof. intros r srclen ordered stop panics sched Hw. apply imrun_threads; auto with runner. Qed.
Print Assumptions C08_workers_bounded_iter.

(** REFUTED for the reduce operator (known finding, DESIGN.md section 6): the per-worker partial
    results are combined by the calling thread ([Runner::reduce]: [threads.map(join).reduce(op)]),
    so with [Max(n)] the operator can be invoked by [n] workers and by the caller: [n + 1] distinct
    threads.  (The concurrency clause is unaffected: the caller combines after the joins.)
    A worker invokes the operator when it folds at least two values; the caller when at least two
    workers come back with a value. *)
Definition op_threads {V} (pe : nat -> list (event V)) (wl : list worker) : nat :=
  length (filter (fun w => 2 <=? length (flat_map (vals pe) (seen w))) wl)
  + (if 2 <=? length (filter (fun w => 1 <=? length (flat_map (vals pe) (seen w))) wl) then 1 else 0).
Theorem C08_reduce_operator_on_caller_refuted :
  let r := mkRunner (Some 8%N) 2%N (RExact 2%N) in          (* Max(2) *)
  let s := mrun r 8 (@nostop) ([0; 0] ++ round_robin 2 20) in
  let pe := fun i : nat => [EYield i] in
  all_doneb s = true /\ length (ws s) = 2 /\ op_threads pe (ws s) = 3.
Proof. vm_compute. repeat split. Qed.
Print Assumptions C08_reduce_operator_on_caller_refuted.
