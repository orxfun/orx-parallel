(** C01 — ordered collection equals sequential iteration. *)
From OrxPar Require Import Base Settings SettingsP Spec Pipeline PipelineP Machine Kernels KernelsP
  Program Master.

(** Whatever sequence of map / filter / flat_map / filter_map / num_threads / chunk_size
    operations builds the computation (through any number of eager sites), whatever well-formed
    settings the runner resolved, and whatever the schedule: when the run completes, the
    filtering collect kernels return exactly the sequential chain's output ... *)
Theorem C01_collect_merge : forall (V : Type) (src : list V) (ops : list (op V)) (r : Runner) (sched : list nat),
  runner_wf r -> all_done (full_run r src ops sched) ->
  res_col (tpe src ops) [] (ws (full_run r src ops sched)) = seq_chain (stages_of ops) src.
Proof. intros V src ops r sched Hw Hd. apply gen_collect_merge, mrun_outcome; auto with runner. Qed.
Print Assumptions C01_collect_merge.

(** ... and so does the map-only kernel that writes positionally into the ordered bag
    (every position written exactly once, so the count check succeeds). *)
Theorem C01_collect_bag : forall (V : Type) (src : list V) (ops : list (op V)) (r : Runner) (sched : list nat),
  runner_wf r -> all_done (full_run r src ops sched) ->
  (forall x, length (yields (trace (tpar src ops) x)) = 1) ->
  res_map_col (tpe src ops) [] (tlen src ops) (ws (full_run r src ops sched))
  = Some (seq_chain (stages_of ops) src).
Proof. intros V src ops r sched Hw Hd H1. apply gen_collect_bag; [apply mrun_outcome|]; auto with runner. Qed.
Print Assumptions C01_collect_bag.

(** The library's closure composition denotes the std chain, for chains of any length on
    all eight computation types. *)
Theorem C01_denotation : forall (V : Type) (src : list V) (ops : list (op V)),
  denote (build src ops) = seq_chain (stages_of ops) src.
Proof. exact build_denote. Qed.
Print Assumptions C01_denotation.

(** The k-way merge returns the key-sorted sequence whenever every per-thread vector is
    key-sorted and together they hold the target's elements. *)
Theorem C01_merge : forall (V : Type) (vs : list (list (nat * nat * V))) (target : list (nat * nat * V)),
  Forall (@ksorted V) vs -> ksorted target -> Permutation (concat vs) target -> kmerge vs = target.
Proof. exact kmerge_sorted_eq. Qed.
Print Assumptions C01_merge.

(** the hypotheses are satisfiable: a concrete completed run *)
Example C01_example :
  let r := mkRunner (Some 5%N) 3%N (RExact 2%N) in
  let ops := [OStage (SMap 0 (fun x => x + 1)); OStage (SFilter 1 Nat.even)] in
  let s := full_run r [1; 2; 3; 4; 5] ops [0;0;0;0;1;2;3;1;2;3;1;1;2;2;3;3;1;2;3;1;2;3;1;2;3] in
  all_doneb s = true /\ res_col (tpe [1; 2; 3; 4; 5] ops) [] (ws s) = [2; 4; 6].
Proof. vm_compute. split; reflexivity. Qed.

From OrxPar Require Import MachineIter MasterIter.

(** the same over a by-value iterator source (ticket-ordered handle protocol) *)
Theorem C01_collect_merge_iter : forall (V : Type) (src : list V) (ops : list (op V)) (r : Runner)
  (ordered : bool) (sched : list nat),
  runner_wf r -> iall_done (imrun r (tlen src ops) ordered (@nostop) sched) ->
  res_col (tpe src ops) [] (map wk (iws (imrun r (tlen src ops) ordered (@nostop) sched)))
  = seq_chain (stages_of ops) src.
Proof. intros V src ops r ordered sched Hw Hd. apply gen_collect_merge, imrun_outcome; auto with runner. Qed.
Print Assumptions C01_collect_merge_iter.

(** eager sites: the intermediate vector that an eager transformation materialises with
    [collect_vec] -- computed by a real run of the runner machine under any schedule -- is the
    denotation the construction model ([apply_stage]) continues with *)
Theorem C01_eager_vector : forall (V : Type) (st : pstate V) (r : Runner) (sched : list nat),
  runner_wf r -> all_done (mrun r (length (ps_src st)) (@nostop) sched) ->
  eager_vector st r sched = denote st.
Proof. exact eager_vector_correct. Qed.
Print Assumptions C01_eager_vector.

(** REFUTED on one source kind (known finding, DESIGN.md section 6): a concurrent iterator that
    was advanced before [into_par()] hands out its original indices; the parallel map-only ordered
    collect writes at [offset + idx] into a bag sized for the remaining elements and the count check
    fails -- the call panics where the sequential chain returns the mapped remainder.  The witness
    is replayed on the implementation by K3 (source kinds [pre*]). *)
From OrxPar Require Import Exec.
Theorem C01_pre_advanced_refuted :
  let c pre nt := mkCase true [0; 1; 2; 3; 4; 5]%Z [DNumThreads nt; DChunkSize 2; DMap (Affine 1 10)] TCollectVec
                         16%N [] 50 None false false pre in
  o_result (exec (c 2 3%N)) = RPanic /\                      (* advanced by 2, three threads *)
  o_result (exec (c 2 1%N)) = RList [12; 13; 14; 15]%Z /\    (* the same, sequentially *)
  o_result (exec (c 0 3%N)) = RList [10; 11; 12; 13; 14; 15]%Z.  (* not advanced *)
Proof. vm_compute. repeat split. Qed.
Print Assumptions C01_pre_advanced_refuted.

(** ... and the failure class is exactly characterised: for every run over a source advanced by
    [k >= 1] with [n >= 1] elements left, whatever the schedule, the map-only ordered collect
    panics; with [k = 0] it returns the sequential value ([C15_parallel_value_is_sequential_value]) *)
From OrxPar Require Import ExecP.
Theorem C01_pre_advanced_class : forall (pe : nat -> list (event Z)) (k n : nat) (wl : list worker),
  0 < k -> 0 < n ->
  finish TCollectVec pe n KMap k wl = RPanic /\ finish TCollectSplit pe n KMap k wl = RPanic /\
  forall tg old, finish (TCollectInto tg old) pe n KMap k wl = RPanic.
Proof. exact advanced_map_collect_panics. Qed.
Print Assumptions C01_pre_advanced_class.
