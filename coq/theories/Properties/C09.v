(** C09 — sequential mode is identical to std iterator execution. *)
From OrxPar Require Import Base Spec Pipeline PipelineP.

(** In sequential mode every kernel folds the std adaptors over the composed closures on the
    calling thread: the value is [denote], the calls are [run_log], in that order.  For every
    sequence of operations the value is the sequential chain's ... *)
Theorem C09_value : forall (V : Type) (src : list V) (ops : list (op V)),
  denote (build src ops) = seq_chain (stages_of ops) src.
Proof. exact build_denote. Qed.
Print Assumptions C09_value.

(** ... so [reduce]/[fold] return the left-to-right [Iterator::reduce] value with no assumption
    on the operator ([reduce_list] is a left fold by definition) ... *)
Theorem C09_reduce_is_left_fold : forall (V : Type) (f : V -> V -> V) x l,
  reduce_list f (x :: l) = Some (fold_left f l x).
Proof. reflexivity. Qed.
Print Assumptions C09_reduce_is_left_fold.

(** ... and for a computation executed in one pass the run-time calls are the sequential
    chain's calls in the sequential order: each stage sees its elements in source order. *)
Theorem C09_call_order : forall (V : Type) (src : list V) (ops : list (op V)),
  ps_runs (build src ops) = 0 ->
  run_log (build src ops) = seq_log (stages_of ops) src /\ ps_clog (build src ops) = [].
Proof. intros V src ops H. destruct (build_lazy src ops H) as (H1 & _ & _ & _ & H5). auto. Qed.
Print Assumptions C09_call_order.

(** chunk_size is irrelevant: the value and the logs are functions of the computation only;
    parameters are carried separately *)
Theorem C09_chunk_size_irrelevant : forall (V : Type) (src : list V) (ops : list (op V)) n,
  denote (build src (ops ++ [OChunkSize n])) = denote (build src ops) /\
  run_log (build src (ops ++ [OChunkSize n])) = run_log (build src ops).
Proof. intros V src ops n. rewrite build_snoc. split; reflexivity. Qed.
Print Assumptions C09_chunk_size_irrelevant.

(** REFUTED on ties (known finding, DESIGN.md section 6): [max_by] / [max_by_key] are [reduce] with
    the operator "keep the accumulator unless the new element is strictly greater", so among several
    maximal elements the sequential value is the first; [Iterator::max_by_key] returns the last.
    ([min_by] / [min_by_key] keep the first minimum, as std does.) *)
From OrxPar Require Import Exec.
Definition std_max_by_key (m : Z) (l : list Z) : option Z :=
  match l with
  | [] => None
  | x :: r => Some (fold_left (fun acc y => if (acc mod m <=? y mod m)%Z then y else acc) r x)
  end.
Theorem C09_max_by_key_tie_refuted :
  let c := mkCase true [3; 8; 1]%Z [DNumThreads 1; DChunkSize 1] (TMaxKey 5) 16%N [] 10 None false false 0 in
  o_result (exec c) = ROpt (Some 3%Z) /\ std_max_by_key 5 [3; 8; 1]%Z = Some 8%Z.
Proof. vm_compute. split; reflexivity. Qed.
Print Assumptions C09_max_by_key_tie_refuted.
