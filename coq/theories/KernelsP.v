(** KernelsP: every kernel's result, computed from what the workers of a completed run
    processed, equals the sequential value -- for every run outcome the machine can produce. *)
From OrxPar Require Import Base Spec Machine MachineP Kernels.
Set Implicit Arguments.

(** [Runner::reduce] of per-item results is the result on the concatenation, for any [h] that
    maps [++] to the combining operation ([length] and [+], [reduce_list op] and
    [maybe_reduce op]) *)
Lemma combine_hom {A B M} (f : M -> M -> M) (h : list B -> M) (F : A -> list B) :
  (forall l1 l2, h (l1 ++ l2) = f (h l1) (h l2)) ->
  forall l, match combine f (map (fun a => h (F a)) l) with Some m => m | None => h [] end
            = h (flat_map F l).
Proof.
  intros Happ [|a l]; [reflexivity|]. cbn [map combine flat_map].
  generalize (F a) as l0.
  induction l as [|b l IH]; intros l0; cbn [map fold_left flat_map]; [now rewrite app_nil_r|].
  now rewrite <- Happ, IH, app_assoc.
Qed.

Section Reduce.
Variable V : Type.
Variable op : V -> V -> V.
Hypothesis op_assoc : forall a b c, op (op a b) c = op a (op b c).

Notation mr := (maybe_reduce op).

Lemma mr_assoc a b c : mr (mr a b) c = mr a (mr b c).
Proof. destruct a, b, c; cbv [maybe_reduce]; try reflexivity. now rewrite op_assoc. Qed.
Lemma mr_None_l a : mr None a = a. Proof. destruct a; reflexivity. Qed.
Lemma mr_None_r a : mr a None = a. Proof. destruct a; reflexivity. Qed.

Lemma fold_left_op a y s : fold_left op s (op a y) = op a (fold_left op s y).
Proof.
  revert y; induction s as [|z s IH]; intros y; cbn [fold_left]; [reflexivity|].
  now rewrite op_assoc, IH.
Qed.

Lemma reduce_list_app l1 l2 :
  reduce_list op (l1 ++ l2) = mr (reduce_list op l1) (reduce_list op l2).
Proof.
  destruct l1 as [|x r]; [now rewrite mr_None_l|]. cbn [app reduce_list]. rewrite fold_left_app.
  destruct l2 as [|y s]; cbn [fold_left]; [reflexivity|].
  now rewrite fold_left_op.
Qed.

Lemma reduce_list_cons x l : reduce_list op (x :: l) = mr (Some x) (reduce_list op l).
Proof. exact (reduce_list_app [x] l). Qed.

Lemma fold_chunks {A} (F : A -> list V) chs a0 :
  fold_left (fun acc ch => mr acc (reduce_list op (F ch))) chs a0
  = mr a0 (reduce_list op (flat_map F chs)).
Proof.
  revert a0; induction chs as [|ch chs IH]; intros a0; cbn [fold_left flat_map];
    [now rewrite mr_None_r|].
  now rewrite IH, reduce_list_app, mr_assoc.
Qed.

Hypothesis op_comm : forall a b, op a b = op b a.

Lemma mr_comm a b : mr a b = mr b a.
Proof. destruct a, b; cbv [maybe_reduce]; try reflexivity. now rewrite op_comm. Qed.

Lemma reduce_list_perm l1 l2 : Permutation l1 l2 -> reduce_list op l1 = reduce_list op l2.
Proof.
  induction 1 as [|x l l' _ IH|x y l|l l' l'' _ IH1 _ IH2]; [reflexivity| | |congruence].
  - now rewrite !reduce_list_cons, IH.
  - rewrite !reduce_list_cons, <- !mr_assoc. f_equal. apply mr_comm.
Qed.

End Reduce.

Section Merge.
Variable V : Type.
Notation kv := ((nat * nat) * V)%type.

Definition klt (a b : nat * nat) : Prop := fst a < fst b \/ (fst a = fst b /\ snd a < snd b).

Lemma key_lt_spec a b : key_lt a b = true <-> klt a b.
Proof.
  unfold key_lt, klt. rewrite <- !Nat.ltb_lt, <- Nat.eqb_eq, <- andb_true_iff. apply orb_true_iff.
Qed.

Definition ksorted (l : list kv) : Prop := StronglySorted (fun a b => klt (fst a) (fst b)) l.

Lemma ksorted_app_inv (l1 l2 : list kv) :
  ksorted (l1 ++ l2) -> ksorted l1 /\ ksorted l2 /\ (forall x y, In x l1 -> In y l2 -> klt (fst x) (fst y)).
Proof. apply SSorted_app_inv. Qed.

Lemma pick_min_spec (vs : list (list kv)) :
  Forall ksorted vs ->
  match pick_min vs with
  | None => concat vs = []
  | Some (j, x) =>
      (exists v, nth_error vs j = Some (x :: v)) /\
      Forall (fun z => ~ klt (fst z) (fst x)) (concat vs)
  end.
Proof.
  induction 1 as [|v vs Hv _ IH]; [reflexivity|].
  destruct v as [|x v']; cbn [pick_min concat].
  - destruct (pick_min vs) as [[j y]|]; exact IH.
  - (* the head of a sorted vector precedes the rest of it *)
    assert (Hx : Forall (fun z => ~ klt (fst z) (fst x)) (x :: v')).
    { inversion Hv as [|? ? _ Hf].
      constructor; [|revert Hf; apply Forall_impl]; unfold klt; lia. }
    destruct (pick_min vs) as [[j y]|]; [|split; [now exists v'|now rewrite IH, app_nil_r]].
    destruct IH as [Hy Hmin].
    destruct (key_lt (fst y) (fst x)) eqn:E.
    + apply key_lt_spec in E. split; [exact Hy|]. apply Forall_app. split; [|exact Hmin].
      revert Hx. apply Forall_impl. unfold klt in *. lia.
    + apply not_true_iff_false in E. rewrite key_lt_spec in E.
      split; [now exists v'|]. apply Forall_app. split; [exact Hx|].
      revert Hmin. apply Forall_impl. unfold klt in *. lia.
Qed.

Lemma pop_at_perm (vs : list (list kv)) j x v :
  nth_error vs j = Some (x :: v) -> Permutation (concat vs) (x :: concat (pop_at vs j)).
Proof.
  revert j; induction vs as [|v0 vs IH]; intros [|j] H; try discriminate; cbn.
  - now injection H as ->.
  - rewrite (IH _ H). symmetry. apply Permutation_middle.
Qed.

Lemma pop_at_sorted (vs : list (list kv)) j :
  Forall ksorted vs -> Forall ksorted (pop_at vs j).
Proof.
  intros H; revert j; induction H as [|v0 vs H0 H IH]; intros [|j]; constructor; auto.
  destruct H0; [constructor|assumption].
Qed.

Lemma kmerge_fuel_perm fuel : forall vs : list (list kv),
  Forall ksorted vs -> length (concat vs) <= fuel -> Permutation (kmerge_fuel fuel vs) (concat vs).
Proof.
  induction fuel as [|fuel IH]; intros vs Hs Hl; cbn [kmerge_fuel].
  - destruct (concat vs); [reflexivity|cbn in Hl; lia].
  - pose proof (pick_min_spec Hs) as Hp. destruct (pick_min vs) as [[j x]|]; [|now rewrite Hp].
    destruct Hp as [(v & Hj) _]. apply pop_at_perm in Hj. rewrite Hj. constructor.
    apply IH; [now apply pop_at_sorted|]. apply Permutation_length in Hj. cbn in Hj. lia.
Qed.

Theorem kmerge_sorted_eq (vs : list (list kv)) (target : list kv) :
  Forall ksorted vs -> ksorted target -> Permutation (concat vs) target ->
  kmerge vs = target.
Proof.
  intros Hs Ht P. unfold kmerge. rewrite (Permutation_length P).
  revert vs Hs P; induction Ht as [|t target _ IH Hlt]; intros vs Hs P; [reflexivity|].
  cbn [length kmerge_fuel]. pose proof (pick_min_spec Hs) as Hp.
  destruct (pick_min vs) as [[j x]|]; [|rewrite Hp in P; now apply Permutation_nil in P].
  destruct Hp as [(v & Hj) Hmin]. apply pop_at_perm in Hj. rewrite Forall_forall in Hlt, Hmin.
  (* the pick is the head of the sorted target *)
  assert (x = t) as ->.
  { assert (Hx : In x (t :: target)) by (rewrite <- P, Hj; now left).
    destruct Hx as [->|Hx]; [reflexivity|]. destruct (Hmin t); [rewrite P; now left|auto]. }
  f_equal. apply IH; [now apply pop_at_sorted|]. apply Permutation_cons_inv with t.
  now rewrite <- Hj.
Qed.

End Merge.

Section Results.
Variable V : Type.
Variable pe : nat -> list (event V).
Variable len : nat.
Variable stop : nat -> bool.
Variable wl : list worker.
Hypothesis Hout : Outcome len stop wl.

Section Full.
Hypothesis nostop_all : forall i, stop i = false.

Lemma seen_perm : Permutation (flat_map seen wl) (seq 0 len).
Proof. apply (O_full Hout nostop_all). Qed.

Lemma per_position_perm {B} (F : nat -> list B) :
  Permutation (flat_map (fun w => flat_map F (seen w)) wl) (flat_map F (seq 0 len)).
Proof. rewrite <- flat_map_flat_map. apply Permutation_flat_map. exact seen_perm. Qed.

(** C07 / C04 (kernel level) *)
Theorem res_colx_perm : Permutation (res_colx pe wl) (flat_map (vals pe) (seq 0 len)).
Proof. unfold res_colx, w_colx. apply per_position_perm. Qed.

Theorem res_cnt_eq : res_cnt pe wl = length (flat_map (vals pe) (seq 0 len)).
Proof.
  rewrite <- (Permutation_length res_colx_perm).
  apply (combine_hom Nat.add (@length V) (w_colx pe) (@app_length V)).
Qed.

(** C05 (kernel level): full terminals make the sequential calls, each as often, in some order *)
Theorem calls_full_perm :
  Permutation (flat_map (w_calls_full pe) wl) (flat_map (fun i => calls (pe i)) (seq 0 len)).
Proof. unfold w_calls_full. apply per_position_perm. Qed.

(** C03 (kernel level) *)
Theorem res_red_eq (op : V -> V -> V) :
  (forall a b c, op (op a b) c = op a (op b c)) -> (forall a b, op a b = op b a) ->
  res_red pe op wl = reduce_list op (flat_map (vals pe) (seq 0 len)).
Proof.
  intros Ha Hc. unfold res_red.
  assert (Hw : forall w, In w wl -> w_red pe op w = reduce_list op (flat_map (vals pe) (seen w))).
  { intros w Hw. unfold w_red.
    destruct (O_full Hout nostop_all) as [_ Hp]. rewrite Forall_forall in Hp.
    (* chunk by chunk: the chunks a worker pulled are the positions it has seen *)
    destruct (csize w) as [|[|c]]; [|reflexivity|];
      rewrite (fold_chunks op Ha), mr_None_l, (Hp w Hw); unfold chunk_positions, chunks_of;
      now rewrite flat_map_flat_map, !flat_map_concat_map, map_map. }
  rewrite (map_ext_in _ _ _ Hw).
  rewrite (combine_hom _ (reduce_list op) (fun w => flat_map (vals pe) (seen w)) (reduce_list_app op Ha)).
  apply (reduce_list_perm op Ha Hc), per_position_perm.
Qed.

(** *** ordered collect through the k-way merge (C01 kernel level) *)
Lemma keyed_from_fst i j (l : list V) (x : (nat * nat) * V) : In x (keyed_from i j l) -> fst (fst x) = i /\ j <= snd (fst x).
Proof.
  revert j; induction l as [|v r IH]; intros j H; [destruct H|].
  destruct H as [<-|H]; simpl; [lia|]. apply IH in H. lia.
Qed.

Lemma keyed_from_sorted i j (l : list V) : ksorted (keyed_from i j l).
Proof.
  unfold ksorted. revert j; induction l as [|v r IH]; intros j; simpl; constructor; [apply IH|].
  apply Forall_forall. intros x Hx. apply keyed_from_fst in Hx. unfold klt. simpl. lia.
Qed.

Lemma map_snd_keyed_from i j (l : list V) : map snd (keyed_from i j l) = l.
Proof. revert j; induction l as [|v r IH]; intros j; simpl; [reflexivity|]. now rewrite IH. Qed.

Lemma ksorted_flat_map_keyed (l : list nat) : incr l -> ksorted (flat_map (keyed pe) l).
Proof.
  unfold incr. induction 1 as [|a l Hs IH Hf]; simpl; [constructor|].
  apply SSorted_app; auto.
  - apply keyed_from_sorted.
  - intros x y Hx Hy. apply keyed_from_fst in Hx. apply in_flat_map in Hy.
    destruct Hy as (b & Hb & Hy). apply keyed_from_fst in Hy.
    rewrite Forall_forall in Hf. specialize (Hf b Hb). unfold klt. lia.
Qed.

Theorem res_col_eq (old : list V) : res_col pe old wl = old ++ flat_map (vals pe) (seq 0 len).
Proof.
  unfold res_col. f_equal.
  rewrite (@kmerge_sorted_eq V (map (w_col pe) wl) (flat_map (keyed pe) (seq 0 len))).
  - (* the values of the keyed sequential list *)
    induction (seq 0 len) as [|i l IH]; simpl; [reflexivity|].
    rewrite map_app, IH. unfold keyed at 1. now rewrite map_snd_keyed_from.
  - (* each worker's vector is sorted *)
    apply Forall_map. generalize (O_incr Hout). apply Forall_impl. intros w.
    apply ksorted_flat_map_keyed.
  - (* so is the target *) apply ksorted_flat_map_keyed. apply incr_seq.
  - (* and they hold the same entries *)
    rewrite <- flat_map_concat_map. unfold w_col. apply per_position_perm.
Qed.

(** *** map-only collect: positional writes into the bag (C01 / C06 kernel level) *)
Lemma lookup_app (l1 l2 : list (nat * V)) i : lookup (l1 ++ l2) i = lookup l1 i ++ lookup l2 i.
Proof.
  induction l1 as [|[j v] l1 IH]; simpl; [reflexivity|]. destruct (j =? i); now rewrite IH.
Qed.

Lemma lookup_pos j i (l : list V) : lookup (map (fun v => (j, v)) l) i = if j =? i then l else [].
Proof.
  induction l as [|v l IH]; simpl; [now destruct (j =? i)|]. rewrite IH. now destruct (j =? i).
Qed.

Lemma lookup_writes off (l : list nat) i : NoDup l ->
  lookup (flat_map (fun k => map (fun v => (off + k, v)) (vals pe k)) l) (off + i)
  = if in_dec Nat.eq_dec i l then vals pe i else [].
Proof.
  induction 1 as [|k l Hk Hnd IH]; simpl; [reflexivity|].
  rewrite lookup_app, lookup_pos, IH.
  destruct (Nat.eqb_spec (off + k) (off + i)), (Nat.eq_dec k i) as [->|]; try lia.
  - destruct (in_dec Nat.eq_dec i l); [contradiction|]. apply app_nil_r.
  - now destruct (in_dec Nat.eq_dec i l).
Qed.

Lemma read_bag_ok (writes : list (nat * V)) off a n :
  (forall k, a <= k < a + n -> exists v, lookup writes (off + k) = [v] /\ vals pe k = [v]) ->
  read_bag writes (off + a) n = Some (flat_map (vals pe) (seq a n)).
Proof.
  revert a; induction n as [|n IH]; intros a H; [reflexivity|].
  cbn [read_bag seq flat_map]. destruct (H a) as (v & E1 & E2); [lia|]. rewrite E1, E2.
  replace (S (off + a)) with (off + S a) by lia. rewrite IH; [reflexivity|].
  intros k Hk. apply H. lia.
Qed.

Theorem res_map_col_eq (old : list V) :
  (forall i, i < len -> length (vals pe i) = 1) ->
  res_map_col pe old len wl = Some (old ++ flat_map (vals pe) (seq 0 len)).
Proof.
  intros H1. unfold res_map_col, w_writes. rewrite <- flat_map_flat_map.
  set (G := fun k => map _ (vals pe k)).
  replace (length (flat_map G _)) with len.
  2:{ rewrite (Permutation_length (Permutation_flat_map G seen_perm)), flat_map_length_1, seq_length;
        [reflexivity|].
      intros i Hi. apply in_seq in Hi. unfold G. rewrite map_length. apply H1. lia. }
  rewrite Nat.eqb_refl, <- (Nat.add_0_r (length old)), read_bag_ok; [reflexivity|].
  intros k Hk. unfold G. rewrite (lookup_writes (length old) k (O_disjoint Hout)).
  destruct (in_dec Nat.eq_dec k (flat_map seen wl)) as [Hin|[]].
  - specialize (H1 k ltac:(lia)). destruct (vals pe k) as [|v [|? ?]]; try discriminate. eauto.
  - apply (Permutation_in k (Permutation_sym seen_perm)), in_seq. lia.
Qed.

End Full.

(** *** short-circuit kernels (C02 kernel level) *)

Lemma find_in_Some l i v : find_in pe l = Some (i, v) -> In i l /\ first_yield (pe i) = Some v.
Proof.
  induction l as [|a l IH]; cbn [find_in]; [discriminate|].
  destruct (first_yield (pe a)) eqn:E.
  - intros [= <- <-]. split; [left; reflexivity|exact E].
  - intros H. apply IH in H. split; [right|]; apply H.
Qed.

Lemma find_in_hd l :
  option_map snd (find_in pe l) = hd_error (flat_map (vals pe) l).
Proof.
  induction l as [|a l IH]; [reflexivity|]. cbn [find_in flat_map]. unfold vals at 1.
  rewrite first_yield_hd. destruct (yields (pe a)); [exact IH|reflexivity].
Qed.

(** the reported index is the least position whose element produces anything *)
Lemma find_in_least a n i v :
  find_in pe (seq a n) = Some (i, v) ->
  a <= i < a + n /\ hd_error (vals pe i) = Some v /\ forall j, a <= j < i -> vals pe j = [].
Proof.
  unfold vals. revert a; induction n as [|n IH]; intros a; cbn [seq find_in]; [discriminate|].
  rewrite first_yield_hd. destruct (yields (pe a)) eqn:E; cbn [hd_error].
  - intros H. apply IH in H as (Hi & Hv & Hl). split; [lia|]. split; [exact Hv|].
    intros j Hj. destruct (Nat.eq_dec j a) as [->|]; [exact E|apply Hl; lia].
  - intros [= <- <-]. rewrite E. split; [lia|]. split; [reflexivity|]. lia.
Qed.

(** [min_by_idx] is the minimum in the order that compares indices and puts [None] last *)
Definition idx_le (a b : option (nat * V)) : Prop :=
  match a, b with
  | _, None => True
  | None, Some _ => False
  | Some x, Some y => fst x <= fst y
  end.

Lemma idx_le_refl a : idx_le a a.
Proof. destruct a; cbn; auto. Qed.

Lemma idx_le_trans a b c : idx_le a b -> idx_le b c -> idx_le a c.
Proof. destruct a, b, c; cbn; try tauto. lia. Qed.

Lemma min_by_idx_spec a b :
  (min_by_idx a b = a \/ min_by_idx a b = b) /\ idx_le (min_by_idx a b) a /\ idx_le (min_by_idx a b) b.
Proof.
  destruct a as [[i u]|], b as [[j v]|]; cbn [min_by_idx idx_le fst]; auto.
  destruct (Nat.ltb_spec j i); cbn [fst]; repeat split; auto; lia.
Qed.

Lemma combine_min_spec (l : list (option (nat * V))) : l <> [] ->
  let R := match combine (@min_by_idx V) l with Some o => o | None => None end in
  In R l /\ forall x, In x l -> idx_le R x.
Proof.
  destruct l as [|a r]; [congruence|intros _]. cbn [combine].
  revert a; induction r as [|b r IH]; intros a; cbn [fold_left].
  - split; [now left|]. intros x [<-|[]]. apply idx_le_refl.
  - destruct (IH (min_by_idx a b)) as [Hin Hle], (min_by_idx_spec a b) as (Hab & Ha & Hb).
    pose proof (Hle _ (or_introl eq_refl)) as Hm. split.
    + destruct Hin as [<-|Hin]; [|now do 2 right]. destruct Hab as [->| ->]; cbn; auto.
    + intros x [<-|[<-|Hx]]; [exact (idx_le_trans _ _ _ Hm Ha)|exact (idx_le_trans _ _ _ Hm Hb)|].
      apply Hle. now right.
Qed.

Section Find.
Hypothesis stop_spec : forall i,
  stop i = match first_yield (pe i) with Some _ => true | None => false end.

Lemma find_in_app_none l1 l2 : (forall i, In i l1 -> stop i = false) ->
  find_in pe (l1 ++ l2) = find_in pe l2.
Proof.
  induction l1 as [|i l IH]; intros H; [reflexivity|]. cbn [app find_in].
  pose proof (H i (or_introl eq_refl)) as Hi. rewrite stop_spec in Hi.
  destruct (first_yield (pe i)); [discriminate|]. apply IH. intros j Hj. apply H. right; auto.
Qed.

Theorem res_find_eq : res_find pe wl = find_in pe (seq 0 len).
Proof.
  unfold res_find.
  destruct (@combine_min_spec (map (w_find pe) wl)) as [Hin Hle].
  { intros E. apply map_eq_nil in E. exact (O_nonempty Hout E). }
  set (R := match combine _ _ with Some o => o | None => None end) in *.
  (* no position before the one [R] reports stops: at or below a position that stops, some
     worker stopped, and [R] is at or below that worker's report *)
  assert (Hlow : forall j, j < len -> match R with Some (i, _) => j < i | None => True end ->
                 stop j = false).
  { intros j Hj HR. destruct (stop j) eqn:Hs; [exfalso|reflexivity].
    destruct (O_find Hout Hj Hs) as (w & m & Hw & (s0 & E1 & E2 & E3) & Hmj).
    rewrite stop_spec in E2. destruct (first_yield (pe m)) as [x|] eqn:Ex; [|discriminate].
    specialize (Hle _ (in_map (w_find pe) _ _ Hw)). unfold w_find in Hle.
    rewrite E1, (find_in_app_none s0 [m] E3) in Hle. cbn [find_in] in Hle. rewrite Ex in Hle.
    destruct R as [[i u]|]; cbn in Hle; [lia|exact Hle]. }
  destruct R as [[i u]|].
  - (* [R] is some worker's report: a position that yields *)
    apply in_map_iff in Hin. destruct Hin as (w & Ew & Hw). apply find_in_Some in Ew.
    destruct Ew as [Hi Hu]. pose proof (O_bound Hout w i Hw Hi) as Hil.
    replace len with (i + S (len - S i)) by lia. rewrite seq_app, find_in_app_none.
    + cbn [seq find_in plus]. now rewrite Hu.
    + intros j Hj. apply in_seq in Hj. apply Hlow; lia.
  - rewrite <- (app_nil_r (seq 0 len)), find_in_app_none; [reflexivity|].
    intros j Hj. apply in_seq in Hj. apply Hlow; [lia|exact I].
Qed.

End Find.
End Results.
