(** MachineP: invariants of the runner machine, preserved by every micro-step and therefore
    true after every schedule.  The central one is the partition invariant: the positions
    owned by the workers (processed, pending, abandoned) are exactly [0, front), each owned by
    one worker, each worker's in increasing order.

    [wstep_rel] / [step_rel] say once what a micro-step is, case by case (the spawner's: it leaves
    the counters alone and appends at most one fresh worker); every invariant of this machine
    (here, in Termination.v, Own.v, ExactChunks.v) is proved by case analysis on them.  [process]
    -- what happens to the element at the head of a held chunk, in terms of phase, processed and
    abandoned positions only -- and [sp_move] -- the spawner's moves -- are shared with the
    iterator-source machine. *)
From OrxPar Require Import Base Machine.
Set Implicit Arguments.

Lemma chunks_of_app l1 l2 : chunks_of (l1 ++ l2) = chunks_of l1 ++ chunks_of l2.
Proof. unfold chunks_of. apply flat_map_app. Qed.

Lemma owned_finished w : finished w -> owned w = seen w ++ aband w.
Proof. unfold owned, pending. now intros [-> | ->]. Qed.

Section Invariants.
Variable len : nat.
Variable known : bool.
Variable stop : nat -> bool.
Variable panics : nat -> bool.

Notation wstep := (wstep len stop panics).

(** processing position [i] ends the worker's loop: early exit or panic *)
Definition halt (i : nat) : bool := panics i || stop i.
Definition halted_phase (p : phase) : bool :=
  match p with Found | Done | Dead => true | _ => false end.

(** the element at the head of a held chunk [b, b + k) is processed -- only phase, processed and
    abandoned positions change; a panic takes precedence over a match *)
Inductive process (b : nat) (sn ab : list nat) : nat -> phase -> list nat -> list nat -> Prop :=
| P_empty : process b sn ab 0 Ready sn ab
| P_halt k : halt b = true ->
    process b sn ab (S k) (if panics b then Dead else Found) (sn ++ [b]) (seq (S b) k ++ ab)
| P_next k : halt b = false ->
    process b sn ab (S k) (match k with 0 => Ready | _ => Holding (S b) k end) (sn ++ [b]) ab.

Inductive wstep_rel (c f : nat) (sk : bool) (w : worker) : nat -> nat -> bool -> worker -> Prop :=
| S_pull : ph w = Ready -> c < len ->
    wstep_rel c f sk w (c + csize w) (f + Nat.min (csize w) (len - c)) sk
              (mkW (csize w) (Holding c (Nat.min (csize w) (len - c))) (seen w) (aband w)
                   (pulls w ++ [(c, Nat.min (csize w) (len - c))]))
| S_end : ph w = Ready -> len <= c ->
    wstep_rel c f sk w (c + csize w) f sk (mkW (csize w) Done (seen w) (aband w) (pulls w))
| S_process b k p' sn' ab' : ph w = Holding b k -> process b (seen w) (aband w) k p' sn' ab' ->
    wstep_rel c f sk w c f sk (mkW (csize w) p' sn' ab' (pulls w))
| S_skip : ph w = Found ->
    wstep_rel c f sk w (Nat.max c len) f true (mkW (csize w) Done (seen w) (aband w) (pulls w))
| S_idle : finished w -> wstep_rel c f sk w c f sk w.

Lemma wstep_cases c f sk w : let '(c', f', sk', w') := wstep c f sk w in wstep_rel c f sk w c' f' sk' w'.
Proof.
  unfold Machine.wstep. destruct (ph w) as [|b k| | |] eqn:E.
  - (* Ready *) destruct (Nat.ltb_spec c len); now constructor.
  - (* Holding *)
    pose proof (fun p' sn' ab' => @S_process c f sk w b k p' sn' ab' E) as H.
    destruct k as [|k]; [apply H, P_empty|].
    pose proof (@P_halt b (seen w) (aband w) k) as Hh.
    pose proof (@P_next b (seen w) (aband w) k) as Hn.
    unfold halt in Hh, Hn. destruct (panics b); [|destruct (stop b); [|destruct k]]; apply H; auto.
  - (* Found *) now constructor.
  - (* Done *) apply S_idle. now left.
  - (* Dead *) apply S_idle. now right.
Qed.

(** the worker has not met a halting position *)
Definition nostop (w : worker) : Prop :=
  (forall i, In i (seen w) -> halt i = false) /\ aband w = [] /\ ph w <> Found /\ ph w <> Dead.
(** the worker halted at position [m], the last it processed *)
Definition stopped (w : worker) (m : nat) : Prop :=
  exists s0, seen w = s0 ++ [m] /\ halt m = true /\ (forall i, In i s0 -> halt i = false) /\
             (forall i, In i (aband w) -> m < i) /\ halted_phase (ph w) = true /\
             (ph w = Dead -> panics m = true) /\ (panics m = true -> ph w = Dead).

Record WInv (w : worker) : Prop := {
  W_hist : owned w = chunks_of (pulls w);
  W_incr : incr (owned w);
  W_cs : 0 < csize w;
  W_pulls : Forall (fun p => fst p < len /\ snd p = Nat.min (csize w) (len - fst p)) (pulls w);
  W_stop : nostop w \/ exists m, stopped w m
}.

Lemma stopped_halted w m : stopped w m -> halted_phase (ph w) = true.
Proof. now intros (s0 & _ & _ & _ & _ & H & _). Qed.

Lemma stopped_halt w m : stopped w m -> halt m = true.
Proof. now intros (s0 & _ & H & _). Qed.

Lemma active_nostop w : nostop w \/ (exists m, stopped w m) -> halted_phase (ph w) = false -> nostop w.
Proof. intros [H|[m Hm]] E; [exact H|]. apply stopped_halted in Hm. congruence. Qed.

Lemma process_owned b sn ab k p' sn' ab' cs pl : process b sn ab k p' sn' ab' ->
  owned (mkW cs p' sn' ab' pl) = sn ++ seq b k ++ ab.
Proof.
  unfold owned, pending. intros [|k0 _|k0 _]; cbn; rewrite <- ?app_assoc.
  - easy.
  - now destruct (panics b).
  - now destruct k0.
Qed.

Lemma process_not_done b sn ab k p' sn' ab' : process b sn ab k p' sn' ab' -> p' <> Done.
Proof. intros [|k0 _|k0 _]; [|destruct (panics b)|destruct k0]; discriminate. Qed.

Lemma process_stop b sn ab k p' sn' ab' cs pl : process b sn ab k p' sn' ab' ->
  (forall i, In i sn -> halt i = false) -> ab = [] ->
  nostop (mkW cs p' sn' ab' pl) \/ exists m, stopped (mkW cs p' sn' ab' pl) m.
Proof.
  intros [|k0 Hh|k0 Hh] Hs ->.
  - left. repeat split; auto; discriminate.
  - right. exists b, sn. cbn. rewrite app_nil_r.
    destruct (panics b); repeat split; auto; try easy; intros i Hi; apply in_seq in Hi; lia.
  - left. repeat split; auto; [|destruct k0; discriminate..].
    intros i Hi. apply in_app_or in Hi as [Hi|[<-|[]]]; auto.
Qed.

Lemma dead_panicked w : nostop w \/ (exists m, stopped w m) -> ph w = Dead -> exists i, panics i = true.
Proof. intros [(_ & _ & _ & H)|(m & s0 & _ & _ & _ & _ & _ & H & _)] E; [easy|eauto]. Qed.

Lemma stopped_done w m : ph w = Found -> stopped w m ->
  stopped (mkW (csize w) Done (seen w) (aband w) (pulls w)) m.
Proof.
  intros Hp (s0 & H1 & H2 & H3 & H4 & _ & _ & H7). exists s0. repeat split; auto; try discriminate.
  intros H. specialize (H7 H). congruence.
Qed.

(** what one worker micro-step does, in terms of the state before it *)
Lemma wstep_spec c f sk w c' f' sk' w' :
  wstep_rel c f sk w c' f' sk' w' ->
  (* [G_ctr], [G_front], [G_noskip]; then what [G_w] and [G_perm] say about [w] *)
  (c < len -> c = f) -> f <= len -> (sk = false -> len <= c -> f = len) ->
  WInv w -> (forall x, In x (owned w) -> x < f) ->
  WInv w' /\
  (* what it is handed lies at the frontier *)
  owned w' = owned w ++ seq f (f' - f) /\ f <= f' /\ f' <= len /\
  (* the counter: below [len] it is the frontier, and a worker ends only beyond [len] *)
  (c' < len -> c' = f') /\ c <= c' /\
  (ph w' = Done -> ph w = Done \/ len <= c') /\
  (* the signal: without it the counter passes [len] only when all is handed out; it is given
     by a worker that stopped, and such a worker stays so *)
  (sk' = false -> len <= c' -> f' = len) /\
  (sk' = true -> sk = true \/ exists m, stopped w' m) /\
  (forall m, stopped w m -> stopped w' m).
Proof.
  intros W Hc Hf Hn [Wh Wi Wc Wp Ws] Hlt.
  (* before it halts a worker has met no halting position: [stopped w m] is absurd *)
  assert (Hact : halted_phase (ph w) = false -> nostop w /\ forall m, stopped w m -> stopped w' m).
  { intros H. split; [now apply active_nostop|]. intros m Hm. apply stopped_halted in Hm.
    congruence. }
  destruct W as [Hp E|Hp E|b k p' sn' ab' Hp P|Hp|Hp]; rewrite ?Nat.sub_diag, ?app_nil_r.
  - (* S_pull *)
    destruct Hact as [(Hns & Ha & _) Hm]; [now rewrite Hp|]. specialize (Hc E); subst f.
    set (k := Nat.min (csize w) (len - c)) in *. replace (c + k - c) with k by lia.
    (* [owned w] is [seen w], and [seq c k] is added to it *)
    split; [constructor|]; unfold owned, pending in *; cbn [ph seen aband csize pulls];
      rewrite Hp, Ha, ?app_nil_r in *; auto.
    + (* W_hist *) rewrite Wh, chunks_of_app. cbn. now rewrite app_nil_r.
    + (* W_incr *) apply incr_app; auto using incr_seq.
      intros x y Hx Hy. apply in_seq in Hy. specialize (Hlt x Hx). lia.
    + (* W_pulls *) apply Forall_app. repeat constructor; auto.
    + (* W_stop *) left. repeat split; auto; discriminate.
    + repeat split; auto; try lia; discriminate.
  - (* S_end *)
    destruct Hact as [(Hns & Ha & _) Hm]; [now rewrite Hp|]. unfold owned, pending in *.
    rewrite Hp in *.
    split; [constructor; auto|].
    + left. repeat split; auto; discriminate.
    + repeat split; auto; lia.
  - (* S_process *)
    pose proof (process_owned (csize w) (pulls w) P) as Eo. pose proof (process_not_done P) as Hd.
    replace (seen w ++ seq b k ++ aband w) with (owned w) in Eo
      by (unfold owned, pending; now rewrite Hp).
    destruct Hact as [Hns Hm]; [now rewrite Hp|].
    split; [constructor; rewrite ?Eo; auto; apply (process_stop _ _ P); apply Hns|].
    (* [tauto]: [ph w' = Done -> …] from [Hd] *)
    repeat split; auto; try lia; tauto.
  - (* S_skip *)
    pose proof (fun m => @stopped_done w m Hp) as Hst.
    unfold owned, pending in *. rewrite Hp in *.
    destruct Ws as [(_ & _ & H & _)|[m Hm]]; [congruence|].
    split; [constructor; cbn; eauto|]. repeat split; auto; try lia; try discriminate; eauto.
  - (* S_idle *) split; [now constructor|]. repeat split; auto; lia.
Qed.

Variable dospawn : nat -> option nat -> bool.
Variable nextc : nat -> option nat -> option nat.

Notation step := (step len known stop panics dospawn nextc).
Notation run := (run len known stop panics dospawn nextc).

(** the spawner's move, the same over both kinds of source: with [n] workers, from phase [p] it
    spawns [k] workers and goes on in phase [p'] *)
Inductive sp_move (n : nat) : sphase -> nat -> sphase -> Prop :=
| M_spawn j h : dospawn n h = true ->
    sp_move n (SpLoop j) 1 (match j with S (S j') => SpLoop (S j') | _ => SpLag end)
| M_enough j : sp_move n (SpLoop j) 0 SpFinal
| M_lag p' : p' = SpFinal \/ p' = SpLoop LAG_PERIODICITY -> sp_move n SpLag 0 p'
| M_final : sp_move n SpFinal 1 SpDone
| M_done : sp_move n SpDone 0 SpDone.

(** the spawner leaves the counters alone and appends at most one fresh worker *)
Inductive step_rel (s : sys) : nat -> sys -> Prop :=
| T_spawner new ph' cu :
    new = [] \/ new = [fresh (cur s)] -> cu = cur s \/ (exists n h, nextc n h = Some cu) ->
    sp_move (length (ws s)) (sph s) (length new) ph' ->
    step_rel s 0 (mkS (ctr s) (front s) (skipped s) (ws s ++ new) ph' cu)
| T_absent i : nth_error (ws s) i = None -> step_rel s (S i) s
| T_worker l1 w l2 c f sk w' :
    ws s = l1 ++ w :: l2 -> wstep_rel (ctr s) (front s) (skipped s) w c f sk w' ->
    step_rel s (S (length l1)) (mkS c f sk (l1 ++ w' :: l2) (sph s) (cur s)).

Lemma step_cases s t : step_rel s t (step s t).
Proof.
  destruct t as [|i]; cbn [Machine.step].
  - pose proof (@T_spawner s []) as H0. pose proof (@T_spawner s [fresh (cur s)]) as H1.
    rewrite app_nil_r in H0. unfold Machine.sstep. destruct (sph s) eqn:Ep.
    + (* SpLoop *) destruct (dospawn _ _) eqn:E; [apply H1|apply H0]; eauto using sp_move.
    + (* SpLag *) destruct (nextc _ _) eqn:E; apply H0; eauto using sp_move.
    + (* SpFinal *) apply H1; eauto using sp_move.
    + (* SpDone; [s] by its fields: the step of a spawner that is done is [s] itself *)
      destruct s; cbn in *; subst. apply H0; auto. apply M_done.
  - destruct (nth_error (ws s) i) as [w|] eqn:E; [|now constructor].
    apply nth_error_split in E as (l1 & l2 & E & <-).
    pose proof (wstep_cases (ctr s) (front s) (skipped s) w) as W.
    destruct (wstep _ _ _ w) as [[[c f] sk] w']. rewrite E, upd_app_here. now apply T_worker with w.
Qed.

Variable maxt : nat.                     (* max_num_threads *)

Hypothesis dospawn_bound : forall n h, dospawn n h = true -> n + 2 <= maxt.

Lemma sp_move_bound n p k p' : sp_move n p k p' ->
  match p with SpDone => 1 <= n <= maxt | _ => n + 1 <= maxt end ->
  match p' with SpDone => 1 <= n + k <= maxt | _ => n + k + 1 <= maxt end.
Proof.
  intros [j h E| |p0 [-> | ->]| |]; try lia. apply dospawn_bound in E. destruct j as [|[|j]]; lia.
Qed.

Hypothesis nextc_pos : forall n h c, nextc n h = Some c -> 0 < c.

(** One slot stays reserved for the unconditional final spawn: hence [length (ws s) + 1 <= maxt]
    before [SpDone] in [G_sp], and [n + 2] in [dospawn_bound]. *)
Record GInv (s : sys) : Prop := {
  G_perm : Permutation (flat_map owned (ws s)) (seq 0 (front s));
  G_front : front s <= len;
  G_ctr : ctr s < len -> ctr s = front s;
  G_noskip : skipped s = false -> len <= ctr s -> front s = len;
  G_done : (exists w, In w (ws s) /\ ph w = Done) -> len <= ctr s;
  G_w : Forall WInv (ws s);
  G_sk : skipped s = true -> exists w m, In w (ws s) /\ stopped w m;
  G_cur : 0 < cur s;
  G_sp : match sph s with SpDone => 1 <= length (ws s) <= maxt | _ => length (ws s) + 1 <= maxt end
}.

Lemma fresh_WInv c : 0 < c -> WInv (fresh c).
Proof. intros Hc. constructor; cbn; auto; [constructor|]. left. easy. Qed.

Lemma step_GInv s t : GInv s -> GInv (step s t).
Proof.
  intros G. destruct (step_cases s t) as [new ph' cu Hn Hcu M|i|l1 w l2 c f sk w' E W]; [|exact G|].
  - destruct G as [Gp Gf Gc Gn Gd Gw Gk Gu Gs].
    apply sp_move_bound in M; auto. rewrite <- app_length in M.
    assert (0 < cu) by (destruct Hcu as [->|(n & h & Hcu)]; eauto).
    destruct Hn as [-> | ->]; [rewrite app_nil_r in M; now constructor; cbn; rewrite ?app_nil_r|].
    constructor; cbn; auto.
    + (* G_perm *) rewrite flat_map_app. now rewrite app_nil_r.
    + (* G_done *)
      intros (w & Hw & Hd). apply in_app_or in Hw as [Hw|[<-|[]]]; [eauto|discriminate].
    + (* G_w *) apply Forall_app. auto using fresh_WInv.
    + (* G_sk *)
      intros Hs. destruct (Gk Hs) as (w & m & Hw & Hm). exists w, m. auto using in_or_app.
  - destruct G as [Hp Hf Hc Hn Hd Hw Hk Hu Hs]. rewrite E in *.
    destruct (wstep_spec W Hc Hf Hn (Forall_elt _ _ _ Hw)
                (fun x => flat_map_seq_lt owned Hp (in_elt w l1 l2)))
      as (HW' & Eo & Hf1 & Hf2 & Hc' & Hcc & Hdone & Hn' & Hsk' & Hst).
    constructor; cbn [ctr front skipped ws sph cur]; auto.
    + (* G_perm *) rewrite (flat_map_mid_perm owned l1 l2 Eo), Hp, <- seq_app.
      now replace (front s + (f - front s)) with f by lia.
    + (* G_done *) intros (x & Hx & Hxd). apply in_mid_swap with (w := w) in Hx as [->|Hx].
      * destruct (Hdone Hxd); auto. enough (len <= ctr s) by lia. apply Hd. eauto using in_elt.
      * enough (len <= ctr s) by lia. eauto.
    + (* G_w *) now apply Forall_mid_swap with w.
    + (* G_sk *) intros Hsk. destruct (Hsk' Hsk) as [Hsk0|[m Hm]]; [|eauto using in_elt].
      destruct (Hk Hsk0) as (x & m & Hx & Hm).
      apply in_mid_swap with (w := w') in Hx as [->|Hx]; eauto using in_elt.
    + (* G_sp *) now rewrite app_length in *.
Qed.

Hypothesis maxt_pos : 1 <= maxt.

Theorem run_GInv s sched : GInv s -> GInv (run s sched).
Proof using dospawn_bound nextc_pos maxt_pos. apply run_inv. apply step_GInv. Qed.

Lemma init_GInv c0 : 0 < c0 -> GInv (init c0).
Proof. intros Hc. constructor; cbn; auto; try lia; try easy. now intros (w & Hw & _). Qed.

Definition nostop_seen (hf : nat -> bool) (w : worker) : Prop := forall i, In i (seen w) -> hf i = false.
Definition stopped_seen (hf : nat -> bool) (w : worker) (m : nat) : Prop :=
  exists s0, seen w = s0 ++ [m] /\ hf m = true /\ (forall i, In i s0 -> hf i = false).

(** [hf i]: processing position [i] made its worker leave the loop *)
Record Outcome (hf : nat -> bool) (wl : list worker) : Prop := {
  O_nonempty : wl <> [];
  O_incr : Forall (fun w => incr (seen w)) wl;
  O_cases : Forall (fun w => nostop_seen hf w \/ exists m, stopped_seen hf w m) wl;
  O_bound : forall w i, In w wl -> In i (seen w) -> i < len;
  (* no early exit: every position is processed by exactly one worker, chunk by chunk *)
  O_full : (forall i, hf i = false) ->
           Permutation (flat_map seen wl) (seq 0 len) /\
           Forall (fun w => seen w = chunks_of (pulls w)) wl;
  (* early exit: below every stopping position some worker stopped *)
  O_find : forall j, j < len -> hf j = true ->
           exists w m, In w wl /\ stopped_seen hf w m /\ m <= j;
  O_disjoint : NoDup (flat_map seen wl)
}.

(** a worker that processed a panicking position is [Dead]: the panic is never swallowed *)
Lemma panic_dead s : GInv s -> forall w i, In w (ws s) -> In i (seen w) -> panics i = true -> ph w = Dead.
Proof.
  intros G w i Hw Hi Hp. pose proof (Forall_In (G_w G) Hw) as HW.
  assert (Hh : halt i = true) by (unfold halt; now rewrite Hp).
  destruct (W_stop HW) as [(H1 & _)|(m & s0 & E1 & _ & E3 & _ & _ & _ & E7)];
    [now rewrite H1 in Hh|].
  rewrite E1 in Hi. apply in_app_or in Hi as [Hi|[<-|[]]]; auto. now rewrite E3 in Hh.
Qed.

(** the facts about a completed, panic-free run from which every kernel theorem follows;
    shared by the indexed-source machine and the iterator-source machine *)
Lemma outcome_from_facts (wl : list worker) (fr : nat) (sk : bool) :
  wl <> [] ->
  (forall w, In w wl -> ph w = Done) ->
  Permutation (flat_map owned wl) (seq 0 fr) ->
  fr <= len ->
  (sk = false -> fr = len) ->
  (forall w, In w wl -> owned w = chunks_of (pulls w) /\ incr (owned w) /\ (nostop w \/ exists m, stopped w m)) ->
  (sk = true -> exists w m, In w wl /\ stopped w m) ->
  Outcome halt wl.
Proof using maxt_pos. (* not needed by the proof; the statement carries it all the same *)
  intros Hne Hdone Gp Gf Gn Gw Gk.
  assert (Hown : forall w, In w wl -> owned w = seen w ++ aband w).
  { intros w Hw. apply owned_finished. left. auto. }
  assert (Hlt : forall w x, In w wl -> In x (seen w) -> x < fr).
  { intros w x Hw Hx. apply (flat_map_seq_lt owned Gp Hw). rewrite (Hown w Hw).
    auto using in_or_app. }
  assert (Hss : forall w m, stopped w m -> stopped_seen halt w m /\ In m (seen w)).
  { intros w m (s0 & E1 & E2 & E3 & _). split; [now exists s0|]. rewrite E1. apply in_elt. }
  constructor; auto.
  - apply Forall_forall. intros w Hw. destruct (Gw w Hw) as (_ & Wi & _).
    rewrite (Hown w Hw) in Wi. now apply incr_app_inv in Wi.
  - apply Forall_forall. intros w Hw.
    destruct (Gw w Hw) as (_ & _ & [(H1 & _)|(m & Hm)]); [now left|].
    right. exists m. now apply Hss.
  - intros w i Hw Hi. specialize (Hlt w i Hw Hi). lia.
  - intros Hns.
    assert (Hab : forall w, In w wl -> seen w = owned w).
    { intros w Hw. rewrite (Hown w Hw). destruct (Gw w Hw) as (_ & _ & [(_ & -> & _)|[m Hm]]).
      - now rewrite app_nil_r.
      - apply stopped_halt in Hm. now rewrite Hns in Hm. }
    split.
    + rewrite (flat_map_ext_in _ _ _ Hab), Gp, Gn; auto.
      destruct sk; auto. destruct (Gk eq_refl) as (w & m & _ & Hm). apply stopped_halt in Hm.
      now rewrite Hns in Hm.
    + apply Forall_forall. intros w Hw. rewrite (Hab w Hw). apply (Gw w Hw).
  - intros j Hj Hh. destruct (Nat.lt_ge_cases j fr) as [Hjf|Hjf].
    + (* the owner of [j] stopped at it or before it *)
      assert (Hin : In j (flat_map owned wl)) by (apply (Permutation_in _ (Permutation_sym Gp)), in_seq; lia).
      apply in_flat_map in Hin as (w & Hw & Hjw). rewrite (Hown w Hw) in Hjw. exists w.
      destruct (Gw w Hw) as (_ & _ & [(H1 & H2 & _)|(m & Hm)]).
      * rewrite H2, app_nil_r in Hjw. now rewrite (H1 j Hjw) in Hh.
      * exists m. repeat split; auto; [now apply Hss|]. destruct Hm as (s0 & E1 & _ & E3 & E4 & _).
        rewrite E1, !in_app_iff in Hjw.
        destruct Hjw as [[Hjw|[<-|[]]]|Hjw]; [|lia|specialize (E4 j Hjw); lia].
        now rewrite (E3 j Hjw) in Hh.
    + (* beyond the frontier: the run was cut short by a worker that stopped below it *)
      destruct sk; [|specialize (Gn eq_refl); lia].
      destruct (Gk eq_refl) as (w & m & Hw & Hm). destruct (Hss w m Hm) as [Hs Hi].
      exists w, m. repeat split; auto. specialize (Hlt w m Hw Hi). lia.
  - (* what was processed is part of what was handed out *)
    apply NoDup_app_remove_r with (flat_map aband wl).
    rewrite <- flat_map_app_perm, <- (flat_map_ext_in _ _ _ Hown), Gp. apply seq_NoDup.
Qed.

Theorem final_outcome s : GInv s -> all_done s -> (forall i, panics i = false) -> Outcome halt (ws s).
Proof using maxt_pos. (* not needed by the proof; the statement carries it all the same *)
  intros G [Hsp Hfin] Hnp.
  assert (Hdone : forall w, In w (ws s) -> ph w = Done).
  { intros w Hw. destruct (Hfin w Hw) as [H|H]; auto.
    destruct (dead_panicked (W_stop (Forall_In (G_w G) Hw)) H) as [i Hi]. now rewrite Hnp in Hi. }
  destruct G as [Gp Gf Gc Gn Gd Gw Gk Gu Gs]. rewrite Hsp in Gs.
  destruct (ws s) as [|w0 t]; [cbn in Gs; lia|].
  assert (Hctr : len <= ctr s) by (apply Gd; exists w0; split; [|apply Hdone]; now left).
  rewrite Forall_forall in Gw.
  apply (@outcome_from_facts (w0 :: t) (front s) (skipped s)); auto; [easy|].
  intros w Hw. destruct (Gw w Hw) as [Wh Wi _ _ Ws]. auto.
Qed.

End Invariants.
