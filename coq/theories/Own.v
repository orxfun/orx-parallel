(** Own: ownership bookkeeping across the [unsafe] islands (C13, C14).

    Safe Rust drops every owned value exactly once; the bookkeeping can only go wrong where
    raw memory is handled:
      - the owning source ([ConIterOfVec]): [take_one] moves a reserved element out,
        [skip_to_end] drops the untaken tail in place, [Drop] drops what the counter has not
        passed, the lazily draining chunk iterator takes and drops what a worker abandons;
      - the k-way merge: [ptr.read] of every (key, value) and a final [set_len(0)];
      - the ordered bag: positional writes, the count check, its [Drop] rule.
    This file accounts for every source position under every schedule, with or without a
    panicking closure, and states the merge / bag facts the other islands need. *)
From OrxPar Require Import Base Machine MachineP Kernels KernelsP.

Section Own.
Variable len : nat.
Variable known : bool.
Variable stop : nat -> bool.
Variable panics : nat -> bool.
Variable dospawn : nat -> option nat -> bool.
Variable nextc : nat -> option nat -> option nat.
Variable maxt : nat.

Notation step := (step len known stop panics dospawn nextc).
Notation run := (run len known stop panics dospawn nextc).
Notation step_cases := (step_cases len known stop panics dospawn nextc).
Notation GInv := (GInv len stop panics maxt).

(** positions dropped in place by the step that thread [t] is about to take: only
    [skip_to_end] does that, for [counter_before .. len) when the counter was still short *)
Definition skip_drop (s : sys) (t : nat) : list nat :=
  match t with
  | 0 => []
  | S i => match nth_error (ws s) i with
           | Some w => match ph w with
                       | Found => if ctr s <? len then seq (ctr s) (len - ctr s) else []
                       | _ => []
                       end
           | None => []
           end
  end.

(** everything [skip_to_end] calls drop in place along a schedule *)
Fixpoint skip_drops (s : sys) (sched : list nat) : list nat :=
  match sched with
  | [] => []
  | t :: r => skip_drop s t ++ skip_drops (step s t) r
  end.

(** what [Drop for ConIterOfVec] drops when the kernel's frame is left (normally or by
    unwinding): the positions the counter has not passed *)
Definition final_drop (s : sys) : list nat := seq (Nat.min (ctr s) len) (len - Nat.min (ctr s) len).

(** positions moved out of the source buffer: processed, or abandoned and then taken and
    dropped by the draining chunk iterator *)
Definition moved_out (s : sys) : list nat := flat_map seen (ws s) ++ flat_map aband (ws s).

(** the drops so far are the positions the counter has passed without handing them out *)
Definition DInv (s : sys) (d : list nat) : Prop := d = seq (front s) (Nat.min (ctr s) len - front s).

Lemma step_DInv s t d : GInv s -> DInv s d -> DInv (step s t) (d ++ skip_drop s t).
Proof.
  unfold DInv. intros G ->. pose proof (G_ctr G) as Hc.
  destruct (step_cases s t) as [|i En|l1 w l2 c f sk w' E W];
    cbn [skip_drop].
  - apply app_nil_r.
  - rewrite En. apply app_nil_r.
  - rewrite E, nth_error_app_here. cbn [ctr front].
    destruct W as [Hp Hl|Hp Hl|b k p' sn' ab' Hp _|Hp|[Hp|Hp]]; rewrite Hp, ?app_nil_r;
      auto.
    + (* S_pull: it hands out what the counter passes *)
      rewrite (Hc Hl). replace (Nat.min (front s) len - front s) with 0 by lia.
      now replace (Nat.min (front s + csize w) len - _) with 0 by lia.
    + (* S_end *) f_equal. lia.
    + (* S_skip: the counter passes everything that is left *)
      destruct (Nat.ltb_spec (ctr s) len) as [Hl|Hl].
      * rewrite (Hc Hl). replace (Nat.min (front s) len - front s) with 0 by lia. cbn [seq app].
        f_equal. lia.
      * rewrite app_nil_r. f_equal. lia.
Qed.

Hypothesis dospawn_bound : forall n h, dospawn n h = true -> n + 2 <= maxt.
Hypothesis nextc_pos : forall n h c, nextc n h = Some c -> 0 < c.
Hypothesis maxt_pos : 1 <= maxt.

Lemma run_DInv sched : forall s d, GInv s -> DInv s d -> DInv (run s sched) (d ++ skip_drops s sched).
Proof.
  induction sched as [|t r IH]; intros s d G D; cbn; [now rewrite app_nil_r|].
  rewrite app_assoc. apply IH; [now apply step_GInv|now apply step_DInv].
Qed.

Lemma finished_owned (l : list worker) : (forall w, In w l -> finished w) ->
  Permutation (flat_map seen l ++ flat_map aband l) (flat_map owned l).
Proof.
  intros Hfin. rewrite <- flat_map_app_perm. erewrite flat_map_ext_in; [reflexivity|].
  intros w Hw. symmetry. auto using owned_finished.
Qed.

(** C13 / C14, the owning source: for every schedule and whatever closures panic, when all
    threads have finished every source position has been either moved out of the buffer
    exactly once (and then belongs to safe code) or dropped in place exactly once -- by the
    first [skip_to_end] or by the iterator's [Drop] -- and never both. *)
Theorem source_accounting c0 sched :
  0 < c0 -> all_done (run (init c0) sched) ->
  let s := run (init c0) sched in
  Permutation (moved_out s ++ skip_drops (init c0) sched ++ final_drop s) (seq 0 len).
Proof.
  intros Hc Hd. set (s := run (init c0) sched) in *.
  assert (G : GInv s) by (apply run_GInv, init_GInv; auto).
  assert (D : DInv s ([] ++ skip_drops (init c0) sched)) by (apply run_DInv; [now apply init_GInv|reflexivity]).
  unfold moved_out, final_drop. rewrite (finished_owned _ (proj2 Hd)), (G_perm G), D.
  pose proof (G_front G). pose proof (G_ctr G). set (m := Nat.min (ctr s) len).
  (* handed out, passed by the counter, not reached: three adjacent intervals *)
  replace (seq m (len - m)) with (seq (front s + (m - front s)) (len - m)) by (f_equal; lia).
  rewrite <- !seq_app. apply Permutation_refl'. f_equal. lia.
Qed.

(** no position is both processed and abandoned, nor handled by two workers *)
Theorem moved_out_NoDup s : GInv s -> all_done s -> NoDup (moved_out s).
Proof.
  intros G [_ Hfin]. unfold moved_out. rewrite (finished_owned _ Hfin), (G_perm G). apply seq_NoDup.
Qed.

End Own.

(** ** the merge island: every (key, value) is read out exactly once before the vectors are
    truncated -- the output is a permutation of the vectors' contents *)
Theorem merge_reads_each_once (V : Type) (vs : list (list (nat * nat * V))) :
  Forall (@ksorted V) vs -> NoDup (map fst (concat vs)) -> Permutation (kmerge vs) (concat vs).
Proof.
  intros Hs _. now apply kmerge_fuel_perm.
Qed.

(** what dropping the ordered bag drops.  [guarded = true]: the bag sits in a [ManuallyDrop]
    while the workers run (src/core/map_col.rs), so leaving by unwinding leaks it.
    [guarded = false]: the bag's own [Drop] runs; if its written positions have gaps it treats
    every slot up to [cap] as initialised. *)
Definition bag_drop_on_unwind (guarded : bool) (written : list nat) (cap : nat) : list nat :=
  if guarded then [] else seq 0 cap.

Definition never_written (written : list nat) (i : nat) : Prop := ~ In i written.

(** C14: with the guard no never-written slot is dropped, whatever was written *)
Theorem guarded_bag_safe written cap i :
  In i (bag_drop_on_unwind true written cap) -> False.
Proof. intros []. Qed.

(** the pinned tree's defect, kept as a refutation of the unguarded policy *)
Theorem unguarded_bag_refuted :
  exists written cap i, In i (bag_drop_on_unwind false written cap) /\ never_written written i.
Proof. exists [0; 2], 4, 1. unfold never_written. simpl. intuition discriminate. Qed.
