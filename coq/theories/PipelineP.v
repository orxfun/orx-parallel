(** PipelineP: the library's closure composition denotes the std chain.

    - every closure slot is an event stream and every composition expression of src/par/*.rs a
      [bind] of such streams, so every lazy transformation extends the per-element trace by
      exactly the new stage ([compose_trace]);
    - hence for every sequence of operations, whatever eager sites it goes through, the value a
      full consumer sees is the sequential chain's value ([build_denote]), the calls made
      (at construction time and at run time together) are a permutation of the sequential
      chain's calls ([build_calls_perm]), and parameters are the last ones set
      ([build_params_last]);
    - construction runs user code exactly at the eight eager sites ([build_lazy], [eager_sites]). *)
From OrxPar Require Import Base Settings Spec Pipeline.
Set Implicit Arguments.

Section PipelineP.
Variable V : Type.
Implicit Types (x y : V) (l : clog V) (p : par V) (s : stage V) (tr : list (event V)).

Lemma inj_app l1 l2 : inj (l1 ++ l2) = inj l1 ++ inj l2.
Proof. apply map_app. Qed.

Lemma inj_nil : inj (@nil (nat * V)) = [].
Proof. reflexivity. Qed.

Lemma bind_inj l tr k : bind (inj l ++ tr) k = inj l ++ bind tr k.
Proof. induction l as [|[id a] l IH]; simpl; [reflexivity|]. now rewrite bind_call, IH. Qed.

Lemma bind_inj_only l (k : V -> list (event V)) : bind (inj l) k = inj l.
Proof. generalize (bind_inj l [] k). now rewrite !app_nil_r. Qed.

Lemma yields_inj l : yields (inj l) = [].
Proof. induction l as [|[id a] l IH]; [reflexivity|]. exact IH. Qed.

Lemma calls_inj l : calls (inj l) = l.
Proof. induction l as [|[id a] l IH]; [reflexivity|]. exact (f_equal (cons (id, a)) IH). Qed.

(** ** what the closure slots do, as event streams

    [ev_fil] (Pipeline.v) is the trace of a filter slot; these are the traces of a map slot and of
    a filter_map slot.  A flat_map slot is its own trace, and [fl_then_map fl m x] is
    [bind (fl x) (ev_map m)], [fl_then_fl fl1 fl2 x] is [bind (fl1 x) fl2] by definition. *)
Definition ev_map (m : lmap V) x : list (event V) := let '(l, y) := m x in inj l ++ [EYield y].
Definition ev_fm (fm : lfm V) x : list (event V) :=
  let '(l, o) := fm x in inj l ++ match o with Some y => [EYield y] | None => [] end.

Lemma ev_fil_ufil id q y :
  ev_fil (ufil id q) y = ECall id y :: (if q y then [EYield y] else []).
Proof. reflexivity. Qed.

(** Both sides of each lemma below are lists put together from the results of the closures'
    calls: name the result of each call in turn (with both cases of a flag or an option) and
    compare, up to associativity of [++]. *)
Ltac closures :=
  unfold ev_map, ev_fm, ev_fil;
  repeat (match goal with |- context [let '(_, _) := ?f ?a in _] =>
            is_var f; destruct (f a) as [? []] || destruct (f a) end;
          rewrite ?bind_inj, ?bind_yield1);
  rewrite ?inj_app, <- ?app_assoc; reflexivity.

Lemma tr_mf_bind m f x : tr_mf m f x = bind (ev_map m x) (ev_fil f).
Proof. unfold tr_mf. closures. Qed.

Lemma tr_fmf_bind fm f x : tr_fmf fm f x = bind (ev_fm fm x) (ev_fil f).
Proof. unfold tr_fmf. closures. Qed.

Lemma ev_map_self x : ev_map (@map_self V) x = [EYield x].
Proof. reflexivity. Qed.

Lemma ev_fil_no_filter y : ev_fil (@no_filter V) y = [EYield y].
Proof. reflexivity. Qed.

Lemma bind_no_filter tr : bind tr (ev_fil (@no_filter V)) = tr.
Proof. rewrite (bind_ext tr _ _ ev_fil_no_filter). apply bind_ret. Qed.

(** one lemma per closure expression of src/par/*.rs: each is a [bind] *)
Lemma ev_comp_map m1 m2 x : ev_map (comp_map m1 m2) x = bind (ev_map m1 x) (ev_map m2).
Proof. unfold comp_map. closures. Qed.

Lemma ev_fil_and f1 f2 x : ev_fil (and_fil f1 f2) x = bind (ev_fil f1 x) (ev_fil f2).
Proof. unfold and_fil. closures. Qed.

Lemma bind_and_fil tr f1 f2 :
  bind tr (ev_fil (and_fil f1 f2)) = bind (bind tr (ev_fil f1)) (ev_fil f2).
Proof. rewrite bind_assoc. apply bind_ext. apply ev_fil_and. Qed.

Lemma ev_map_then_fl m fl x : map_then_fl m fl x = bind (ev_map m x) fl.
Proof. unfold map_then_fl. closures. Qed.

Lemma ev_map_then_fm m fm x : ev_fm (map_then_fm m fm) x = bind (ev_map m x) (ev_fm fm).
Proof. unfold map_then_fm. closures. Qed.

Lemma ev_fil_then_map f m x : ev_fm (fil_then_map f m) x = bind (ev_fil f x) (ev_map m).
Proof. unfold fil_then_map. closures. Qed.

Lemma ev_fil_then_fm f fm x : ev_fm (fil_then_fm f fm) x = bind (ev_fil f x) (ev_fm fm).
Proof. unfold fil_then_fm. closures. Qed.

Lemma ev_mapfil_then_map m f m2 x :
  ev_fm (mapfil_then_map m f m2) x = bind (bind (ev_map m x) (ev_fil f)) (ev_map m2).
Proof. unfold mapfil_then_map. closures. Qed.

Lemma ev_mapfil_then_fm m f fm x :
  ev_fm (mapfil_then_fm m f fm) x = bind (bind (ev_map m x) (ev_fil f)) (ev_fm fm).
Proof. unfold mapfil_then_fm. closures. Qed.

Lemma ev_fm_then_map fm m x : ev_fm (fm_then_map fm m) x = bind (ev_fm fm x) (ev_map m).
Proof. unfold fm_then_map. closures. Qed.

Lemma ev_fm_then_fm fm fm2 x : ev_fm (fm_then_fm fm fm2) x = bind (ev_fm fm x) (ev_fm fm2).
Proof. unfold fm_then_fm. closures. Qed.

Lemma ev_fmfil_then_map fm f m x :
  ev_fm (fmfil_then_map fm f m) x = bind (bind (ev_fm fm x) (ev_fil f)) (ev_map m).
Proof. unfold fmfil_then_map. closures. Qed.

Lemma ev_fmfil_then_fm fm f fm2 x :
  ev_fm (fmfil_then_fm fm f fm2) x = bind (bind (ev_fm fm x) (ev_fil f)) (ev_fm fm2).
Proof. unfold fmfil_then_fm. closures. Qed.

Theorem compose_trace p s x :
  eager (kind_of p) (tkind_of s) = false ->
  trace (compose p s) x = bind (trace p x) (ev [s]).
Proof.
  intros He. destruct p, s; try discriminate He; cbn [compose fresh_par trace]; unfold tr_flf.
  (* the traces of the eight types as [bind]s of slot traces *)
  all: rewrite ?tr_mf_bind, ?tr_fmf_bind, ?bind_no_filter, ?ev_map_self, ?bind_yield1.
  (* the composed closure by its lemma; [ev [s]] is the trace of the user closure that [compose]
     puts into the new slot, by computation *)
  all: rewrite ?ev_comp_map, ?ev_fil_and, ?bind_and_fil, ?ev_map_then_fl, ?ev_map_then_fm,
    ?ev_fil_then_map, ?ev_fil_then_fm, ?ev_mapfil_then_map, ?ev_mapfil_then_fm, ?ev_fm_then_map,
    ?ev_fm_then_fm, ?ev_fmfil_then_map, ?ev_fmfil_then_fm; reflexivity.
Qed.

Lemma fresh_trace s x : trace (fresh_par s) x = ev [s] x.
Proof.
  (* [fresh_par s] is [compose PEmpty s], and the trace of [PEmpty] is [[EYield x]] *)
  rewrite <- (bind_yield1 x (ev [s])). now apply (compose_trace PEmpty).
Qed.

(** [find(q)] etc. run the computation with the predicate and-composed: the same traces as
    with one more [filter] stage *)
Lemma with_predicate_trace p id q x :
  trace (with_predicate p (ufil id q)) x = trace (compose p (SFilter id q)) x.
Proof. destruct p; reflexivity. Qed.

Implicit Types (ops : list (op V)) (st : pstate V) (o : op V) (src : list V) (c : chain V).

Lemma denote_ev st c :
  (forall x, trace (ps_par st) x = ev c x) -> denote st = seq_chain c (ps_src st).
Proof.
  intros H. unfold denote. rewrite (flat_map_ext _ _ H), yields_flat_map. apply seq_chain_yields.
Qed.

Lemma run_log_ev st c :
  (forall x, trace (ps_par st) x = ev c x) -> run_log st = seq_log c (ps_src st).
Proof. intros H. unfold run_log. rewrite (flat_map_ext _ _ H). apply calls_flat_map. Qed.

Lemma compose_run p s src : eager (kind_of p) (tkind_of s) = false ->
  flat_map (trace (compose p s)) src = bind (flat_map (trace p) src) (ev [s]).
Proof. intros He. rewrite bind_flat_map. apply flat_map_ext. intros x. now apply compose_trace. Qed.

(** Lazy or eager, in whatever state: a transformation acts on the value of the computation as
    the std stage does, and adds the std stage's calls on that value to the calls made. *)
Lemma apply_stage_denote st s : denote (apply_stage st s) = seq_chain [s] (denote st).
Proof.
  unfold apply_stage. destruct (eager _ _) eqn:He.
  - apply denote_ev, fresh_trace.
  - unfold denote; cbn [ps_par ps_src]. rewrite compose_run, yields_bind by exact He.
    apply seq_chain_yields.
Qed.

Lemma apply_stage_calls st s :
  Permutation (ps_clog (apply_stage st s) ++ run_log (apply_stage st s))
              ((ps_clog st ++ run_log st) ++ seq_log [s] (denote st)).
Proof.
  unfold apply_stage. destruct (eager _ _) eqn:He.
  - erewrite run_log_ev by apply fresh_trace. reflexivity.
  - rewrite <- app_assoc. apply Permutation_app_head.
    unfold run_log at 1; cbn [ps_par ps_src]. rewrite compose_run by exact He.
    apply calls_bind_perm.
Qed.

(** ** the invariant of [build]; [c] = the stages applied so far, [src0] = the original source *)
Record BInv (src0 : list V) (c : chain V) (st : pstate V) : Prop := {
  B_denote : denote st = seq_chain c src0;
  B_calls : Permutation (ps_clog st ++ run_log st) (seq_log c src0);
  B_lazy : ps_runs st = 0 ->
           ps_clog st = [] /\ ps_consumed st = 0 /\ ps_src st = src0 /\
           forall x, trace (ps_par st) x = ev c x
}.

Lemma apply_stage_BInv src0 c st s :
  BInv src0 c st -> BInv src0 (c ++ [s]) (apply_stage st s).
Proof.
  intros [Hd Hc Hl]. split.
  - rewrite seq_chain_app, <- Hd. apply apply_stage_denote.
  - rewrite seq_log_app_perm, <- Hc, <- Hd. apply apply_stage_calls.
  - unfold apply_stage. destruct (eager _ _) eqn:He; [discriminate|]. cbn. intros Hr.
    destruct (Hl Hr) as (? & ? & ? & Ht). repeat split; auto.
    intros x. now rewrite compose_trace, Ht, ev_app.
Qed.

Lemma build_snoc src ops o : build src (ops ++ [o]) = apply_op (build src ops) o.
Proof. unfold build. now rewrite fold_left_app. Qed.

Lemma build_BInv src ops : BInv src (stages_of ops) (build src ops).
Proof.
  induction ops as [|o ops IH] using rev_ind.
  - assert (H : forall x, trace (ps_par (build src [])) x = ev [] x) by reflexivity.
    split; [apply (denote_ev _ _ H)|rewrite (run_log_ev _ _ H); reflexivity|now intros _].
  - rewrite build_snoc. unfold stages_of. rewrite flat_map_app.
    destruct o as [s|n|n|n]; [apply apply_stage_BInv, IH|..].
    (* a setter leaves every field the invariant mentions as it is *)
    all: rewrite app_nil_r; destruct IH; now split.
Qed.

(** The value a full consumer sees is the sequential chain's value, for every sequence of
    operations on every one of the eight types, through any number of eager sites. *)
Theorem build_denote src ops : denote (build src ops) = seq_chain (stages_of ops) src.
Proof. apply build_BInv. Qed.

(** Construction-time and run-time calls together are, up to order, the sequential chain's calls. *)
Theorem build_calls_perm src ops :
  Permutation (ps_clog (build src ops) ++ run_log (build src ops)) (seq_log (stages_of ops) src).
Proof. apply build_BInv. Qed.

(** A computation built without passing an eager site has run nothing and consumed nothing,
    and its run-time calls are the sequential ones in the sequential order. *)
Theorem build_lazy src ops : ps_runs (build src ops) = 0 ->
  ps_clog (build src ops) = [] /\ ps_consumed (build src ops) = 0 /\
  ps_src (build src ops) = src /\
  (forall x, trace (ps_par (build src ops)) x = ev (stages_of ops) x) /\
  run_log (build src ops) = seq_log (stages_of ops) src.
Proof.
  intros Hr. destruct (B_lazy (build_BInv src ops) Hr) as (Hc & Hn & Hs & Ht).
  repeat split; try assumption. now rewrite (run_log_ev _ _ Ht), Hs.
Qed.

(** ** parameters (C12) *)
Definition set_params (p : Params) (o : op V) : Params :=
  match o with
  | OStage _ => p
  | ONumThreads n => with_num_threads p (nt_of_usize n)
  | OChunkSize n => with_chunk_size p (cs_of_usize n)
  | OChunkMin n => with_chunk_size p (CSMin n)
  end.

Lemma apply_op_params st o : ps_params (apply_op st o) = set_params (ps_params st) o.
Proof.
  destruct o as [s|n|n|n]; cbn; try reflexivity.
  unfold apply_stage. destruct (eager _ _); reflexivity.
Qed.

Fixpoint last_threads (ops : list (op V)) (d : NumThreads) : NumThreads :=
  match ops with
  | [] => d
  | ONumThreads n :: r => last_threads r (nt_of_usize n)
  | _ :: r => last_threads r d
  end.
Fixpoint last_chunk (ops : list (op V)) (d : ChunkSize) : ChunkSize :=
  match ops with
  | [] => d
  | OChunkSize n :: r => last_chunk r (cs_of_usize n)
  | OChunkMin n :: r => last_chunk r (CSMin n)
  | _ :: r => last_chunk r d
  end.

Lemma fold_apply_op_params ops st :
  ps_params (fold_left (@apply_op V) ops st) =
  mkParams (last_threads ops (p_threads (ps_params st))) (last_chunk ops (p_chunk (ps_params st))).
Proof.
  revert st; induction ops as [|o ops IH]; intros st; cbn [fold_left].
  - now destruct (ps_params st).
  - rewrite IH, apply_op_params. destruct o as [s|n|n|n]; reflexivity.
Qed.

Theorem build_params_last src ops :
  ps_params (build src ops) = mkParams (last_threads ops NTAuto) (last_chunk ops CSAuto).
Proof. apply fold_apply_op_params. Qed.

(** ** type transitions and eager sites (C16) *)
Definition next_kind (k : kind) (t : tkind) : kind :=
  if eager k t then
    match t with TMap => KMap | TFilter => KFilter | TFlatMap => KFlatMap | TFilterMap => KFilterMap end
  else
  match k, t with
  | KEmpty, TMap => KMap | KEmpty, TFilter => KFilter | KEmpty, TFlatMap => KFlatMap
  | KEmpty, TFilterMap => KFilterMap
  | KMap, TMap => KMap | KMap, TFilter => KMapFilter | KMap, TFlatMap => KFlatMap
  | KMap, TFilterMap => KFilterMap
  | KFilter, TFilter => KFilter | KFilter, _ => KFilterMap
  | KMapFilter, TFilter => KMapFilter | KMapFilter, _ => KFilterMap
  | KFilterMap, TFilter => KFilterMapFilter | KFilterMap, _ => KFilterMap
  | KFilterMapFilter, TFilter => KFilterMapFilter | KFilterMapFilter, _ => KFilterMap
  | KFlatMap, TFilter => KFlatMapFilter | KFlatMap, _ => KFlatMap
  | KFlatMapFilter, _ => KFlatMapFilter
  end.

Lemma apply_stage_kind st s :
  kind_of (ps_par (apply_stage st s)) = next_kind (kind_of (ps_par st)) (tkind_of s).
Proof.
  unfold apply_stage.
  destruct (ps_par st) as [|m|f|m f|fm|fm f|fl|fl f]; destruct s as [id g|id q|id g|id h];
    reflexivity.
Qed.

Definition known_eager : list (kind * tkind) :=
  [(KFilter, TFlatMap); (KMapFilter, TFlatMap); (KFilterMap, TFlatMap); (KFilterMapFilter, TFlatMap);
   (KFlatMapFilter, TMap); (KFlatMapFilter, TFlatMap); (KFlatMapFilter, TFilterMap);
   (KFlatMap, TFilterMap)].

Lemma eager_sites k t : eager k t = true <-> In (k, t) known_eager.
Proof.
  split.
  - destruct k, t; try discriminate; intros _; cbn; auto 9.
  - intros H. repeat (destruct H as [[= <- <-]|H]; [reflexivity|]). destruct H.
Qed.

(** Outside the known eager sites a transformation runs nothing: no closure call, no source
    element consumed, the source untouched. *)
Theorem apply_stage_lazy st s :
  ~ In (kind_of (ps_par st), tkind_of s) known_eager ->
  ps_clog (apply_stage st s) = ps_clog st /\ ps_consumed (apply_stage st s) = ps_consumed st /\
  ps_src (apply_stage st s) = ps_src st /\ ps_runs (apply_stage st s) = ps_runs st.
Proof.
  intros H. unfold apply_stage. destruct (eager _ _) eqn:E; [|cbn; auto].
  now apply eager_sites in E.
Qed.

(** Parameter setters never run anything. *)
Theorem setters_lazy st o : (forall s, o <> OStage s) ->
  ps_clog (apply_op st o) = ps_clog st /\ ps_consumed (apply_op st o) = ps_consumed st /\
  ps_src (apply_op st o) = ps_src st /\ ps_par (apply_op st o) = ps_par st.
Proof. intros H. destruct o as [s|n|n|n]; [now destruct (H s)|..]; auto. Qed.

(** At a known eager site the whole upstream stage is evaluated during construction. *)
Theorem apply_stage_eager st s :
  In (kind_of (ps_par st), tkind_of s) known_eager ->
  ps_clog (apply_stage st s) = ps_clog st ++ run_log st /\
  ps_consumed (apply_stage st s) = ps_consumed st + length (ps_src st) /\
  ps_src (apply_stage st s) = denote st.
Proof.
  intros H. apply eager_sites in H. unfold apply_stage. rewrite H. cbn. auto.
Qed.

End PipelineP.
