(** Program: the runner machine driven by the settings arithmetic of [Settings.v]: the runner's
    decisions as the machine consumes them ([m_dospawn], [m_nextc]), the per-position traces of a
    built computation ([pe_of]), and the run of the indexed machine under resolved settings
    ([mrun], [mrunp]) with the machine theorems instantiated at it.  A failed checked operation
    of the settings arithmetic (a panic of the debug build) reads as "do not spawn" / "no chunk". *)
From OrxPar Require Import Base Settings SettingsP Spec Pipeline Machine MachineP Termination
  Kernels Own.
Set Implicit Arguments.

Definition hm_N (h : option nat) : HasMore := option_map N.of_nat h.

Definition m_dospawn (r : Runner) (n : nat) (h : option nat) : bool :=
  match do_spawn r (N.of_nat n) (hm_N h) with Some b => b | None => false end.

Definition m_nextc (r : Runner) (n : nat) (h : option nat) : option nat :=
  match next_chunk_size r (N.of_nat n) (hm_N h) with
  | Some (Some c) => Some (N.to_nat c)
  | _ => None
  end.

Definition m_maxt (r : Runner) : nat := N.to_nat (r_max_threads r).
Definition m_c0 (r : Runner) : nat := N.to_nat (r_inner (r_chunk r)).

Lemma m_maxt_pos r : runner_pos r -> 1 <= m_maxt r.
Proof. intros [H _]. unfold m_maxt. lia. Qed.

Lemma m_c0_pos r : runner_pos r -> 0 < m_c0 r.
Proof. intros [_ H]. unfold m_c0. lia. Qed.

Lemma m_c0_exact r x : r_chunk r = RExact x -> m_c0 r = N.to_nat x.
Proof. unfold m_c0. now intros ->. Qed.

Lemma m_dospawn_bound r n h : m_dospawn r n h = true -> n + 2 <= m_maxt r.
Proof.
  unfold m_dospawn, m_maxt.
  destruct (do_spawn r (N.of_nat n) (hm_N h)) as [b|] eqn:E; [|discriminate].
  intros ->. apply do_spawn_true_bound in E. lia.
Qed.

(** [next_chunk_size_shape], as the machine sees it *)
Lemma m_nextc_shape r n h c : m_nextc r n h = Some c ->
  (forall x, r_chunk r = RExact x -> c = m_c0 r) /\ exists k, 1 <= k /\ c = k * m_c0 r.
Proof.
  unfold m_nextc, m_c0.
  destruct (next_chunk_size r (N.of_nat n) (hm_N h)) as [[c'|]|] eqn:E; try discriminate.
  intros [= <-]. apply next_chunk_size_shape in E as (_ & He & k & Hk & ->). split.
  - intros x Hx. rewrite (He x Hx), Hx. reflexivity.
  - exists (N.to_nat k). lia.
Qed.

Lemma m_nextc_pos r n h c : runner_pos r -> m_nextc r n h = Some c -> 0 < c.
Proof.
  intros Hw H. apply m_nextc_shape in H as (_ & k & Hk & ->). pose proof (m_c0_pos Hw). nia.
Qed.

(** what the machine theorems assume of the runner (three section hypotheses of the machine
    files, and the positive initial chunk size): all from [runner_pos] *)
Create HintDb runner.
#[export] Hint Resolve m_dospawn_bound m_nextc_pos m_maxt_pos m_c0_pos runner_wf_pos : runner.

(** ** per-position traces of a built computation *)
Section Prog.
Variable V : Type.

Definition pe_of (p : par V) (src : list V) (i : nat) : list (event V) :=
  match nth_error src i with Some x => trace p x | None => [] end.

Lemma flat_map_positions {B} (F : list (event V) -> list B) (p : par V) (src : list V) :
  flat_map (fun i => F (pe_of p src i)) (seq 0 (length src)) = flat_map (fun x => F (trace p x)) src.
Proof.
  induction src as [|x r IH]; [reflexivity|]. cbn [length seq flat_map].
  rewrite <- seq_shift, <- IH.
  (* [pe_of p (x :: r) (S i)] computes to [pe_of p r i] *)
  now rewrite !flat_map_concat_map, map_map.
Qed.

Lemma vals_positions (p : par V) (src : list V) :
  flat_map (vals (pe_of p src)) (seq 0 (length src)) = yields (flat_map (trace p) src).
Proof.
  unfold vals. rewrite (flat_map_positions (@yields V)). now rewrite yields_flat_map.
Qed.

Lemma vals_one (p : par V) (src : list V) : (forall x, length (yields (trace p x)) = 1) ->
  forall i, i < length src -> length (vals (pe_of p src) i) = 1.
Proof.
  intros H i Hi. unfold vals, pe_of. destruct (nth_error src i) eqn:E; [apply H|].
  apply nth_error_None in E. lia.
Qed.

Lemma calls_positions (p : par V) (src : list V) :
  flat_map (fun i => calls (pe_of p src i)) (seq 0 (length src)) = calls (flat_map (trace p) src).
Proof. rewrite (flat_map_positions (@calls V)). now rewrite calls_flat_map. Qed.

(** whether processing position [i] makes a short-circuit kernel stop *)
Definition stop_of (p : par V) (src : list V) (i : nat) : bool :=
  match first_yield (pe_of p src i) with Some _ => true | None => false end.
Definition nostop : nat -> bool := fun _ => false.

End Prog.

Section Run.
Variable r : Runner.

Definition nopanic : nat -> bool := fun _ => false.

(** the general run: [panics i] = the chain's closures panic on source position [i] *)
Definition mrunp (len : nat) (stop panics : nat -> bool) (sched : list nat) : sys :=
  run len (match r_input_len r with Some _ => true | None => false end) stop panics
      (m_dospawn r) (m_nextc r) (init (m_c0 r)) sched.
Definition mrun (len : nat) (stop : nat -> bool) (sched : list nat) : sys :=
  mrunp len stop nopanic sched.

Theorem mrunp_GInv (r_pos : runner_pos r) len stop panics sched :
  GInv len stop panics (m_maxt r) (mrunp len stop panics sched).
Proof. apply run_GInv, init_GInv; eauto with runner. Qed.

Theorem mrun_outcome (r_pos : runner_pos r) len stop sched :
  all_done (mrun len stop sched) -> Outcome len stop (ws (mrun len stop sched)).
Proof.
  intros Hd.
  exact (final_outcome (m_maxt_pos r_pos) (mrunp_GInv r_pos len stop nopanic sched) Hd
                       (fun _ => eq_refl)).
Qed.

(** C08 (machine level): never more workers than [max_num_threads] *)
Theorem mrun_threads (r_pos : runner_pos r) len stop sched :
  length (ws (mrun len stop sched)) <= m_maxt r.
Proof.
  unfold mrun. pose proof (G_sp (mrunp_GInv r_pos len stop nopanic sched)) as H.
  destruct (sph _); lia.
Qed.

Theorem mrunp_panic_propagates (r_pos : runner_pos r) len stop panics sched w i :
  In w (ws (mrunp len stop panics sched)) -> In i (seen w) -> panics i = true -> ph w = Dead.
Proof. eapply panic_dead. now apply mrunp_GInv. Qed.

(** from here on [runner_wf r] is assumed, as in the property files; what is used of it is
    [runner_pos r] *)
Hypothesis r_wf : runner_wf r.

(** ** termination (C10): no reachable state is stuck and a fair continuation completes *)
Let known := match r_input_len r with Some _ => true | None => false end.

Theorem mrunp_SInv len stop panics sched : SInv len (mrunp len stop panics sched).
Proof. apply run_SInv, init_SInv. Qed.

(** after any schedule prefix, [phi] rounds of round robin complete the run *)
Theorem mrunp_completes len stop panics sched :
  all_done (mrunp len stop panics
              (sched ++ round_robin (m_maxt r) (phi len (m_maxt r) (mrunp len stop panics sched)))).
Proof.
  unfold mrunp, Machine.run. rewrite fold_left_app. apply all_doneb_spec.
  apply rr_completes; eauto using mrunp_GInv, mrunp_SInv with runner.
Qed.

(** no schedule contains more than [phi(init)] effective steps *)
Theorem mrun_effective_bounded len stop panics sched :
  effective len known stop panics (m_dospawn r) (m_nextc r) (init (m_c0 r)) sched
  <= 5 * m_maxt r + 2 + 4 * len.
Proof.
  eapply Nat.le_trans;
    [apply effective_le_phi with (maxt := m_maxt r); [..|apply init_GInv|apply init_SInv];
     eauto with runner|].
  now rewrite phi_init.
Qed.

(** once the early-exit signal is out, the rest of the run takes a number of effective steps
    that depends on the thread bound and the chunk sizes only -- not on the remaining input *)
Theorem mrun_after_signal len stop panics sched sched2 :
  skipped (mrunp len stop panics sched) = true ->
  effective len known stop panics (m_dospawn r) (m_nextc r) (mrunp len stop panics sched) sched2
  <= 5 * m_maxt r + 3 + sum_list (map (fun w => 2 * csize w + 3) (ws (mrunp len stop panics sched))).
Proof.
  intros Hsk. eapply Nat.le_trans;
    [apply effective_le_phi with (maxt := m_maxt r); eauto using mrunp_GInv, mrunp_SInv with runner|].
  apply phi_after_signal; eauto using mrunp_SInv with runner.
Qed.

(** ** ownership of an owning source (C13 / C14) *)
Theorem mrunp_source_accounting len stop panics sched :
  all_done (mrunp len stop panics sched) ->
  Permutation (moved_out (mrunp len stop panics sched)
               ++ skip_drops len known stop panics (m_dospawn r) (m_nextc r) (init (m_c0 r)) sched
               ++ final_drop len (mrunp len stop panics sched))
              (seq 0 len).
Proof. apply source_accounting with (maxt := m_maxt r); eauto with runner. Qed.

End Run.
