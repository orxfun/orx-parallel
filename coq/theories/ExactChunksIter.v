(** ExactChunksIter (C11 over by-value iterator sources): with [ChunkSize::Exact(c)] every pull
    from a [ConIterOfIter] / [ConIterOfIterX] starts at a multiple of [c] and takes [c] elements,
    fewer only when the user's iterator is exhausted by that very pull -- for every worker, in
    every reachable state of every schedule, with the ordered and with the first-come handle. *)
From OrxPar Require Import Base Settings SettingsP MachineIter MachineIterP Program ExactChunks
  MasterIter.
Set Implicit Arguments.

Section ExactIter.
Variable srclen : nat.
Variable known : bool.
Variable ordered : bool.
Variable stop : nat -> bool.
Variable panics : nat -> bool.
Variable dospawn : nat -> option nat -> bool.
Variable nextc : nat -> option nat -> option nat.
Variable maxt : nat.
Variable c : nat.

Notation istep := (istep srclen known ordered stop panics dospawn nextc).
Notation irun := (irun srclen known ordered stop panics dospawn nextc).
Notation istep_cases := (istep_cases srclen known ordered stop panics dospawn nextc).
Notation IGInv := (IGInv srclen stop panics maxt).

Definition mult (x : nat) : Prop := exists q, x = q * c.

(** what [Exact(c)] promises about one worker *)
Record EW (w : iworker) : Prop := {
  EW_cs : icsize w = c;
  EW_tk : forall t, iph w = ITicket t -> ordered = true -> mult t;
  EW_rd : forall t got, iph w = IReading t got -> mult t;
  EW_pl : Forall (fun p => mult (fst p) /\ (snd p = c \/ fst p + snd p = srclen) /\ snd p <= c) (ipulls w)
}.

Record EI (s : isys) : Prop := {
  EI_cur : icur s = c;
  EI_ctr : mult (ictr s);
  EI_open : forall n, igate s = Open n -> mult (ifront s);
  EI_w : Forall EW (iws s)
}.

Lemma mult_add x : mult x -> mult (x + c).
Proof. intros [q ->]. exists (S q). cbn. lia. Qed.

Lemma iwstep_EW ct g f sk w ct' g' f' sk' w' :
  iwstep_rel srclen ordered stop panics ct g f sk w ct' g' f' sk' w' ->
  RD f w -> (forall n t got, g = Open n -> iph w <> IReading t got) -> f <= srclen ->
  mult ct -> (forall n, g = Open n -> mult f) -> EW w ->
  mult ct' /\ (forall n, g' = Open n -> mult f') /\ EW w'.
Proof.
  intros W Hrd Hopen Hfr Hct Hop [Hcs Htk Hrdm Hpl].
  destruct W as [E|t n E Eg Hn|t E Eg|t got E Hg Hfs|t got E Hg|b k p' sn' ab' E P|E|Hs];
    (split; [|split; [|constructor]]); cbn [setph iph icsize ipulls]; rewrite ?Hcs;
      auto using mult_add; try easy.
  (* what is left, constructor by constructor *)
  - (* IS_ticket, [EW_tk]: the new ticket is the counter *)
    now intros t [= <-].
  - (* IS_acquire, [EW_rd]: the reader starts at its ticket, or at the frontier the open gate
       shows *)
    intros t0 got [= <- _]. destruct ordered; eauto.
  - (* IS_read, the open gate: nobody reads while the gate is open ... *)
    intros n En. now destruct (Hopen n t got En).
  - (* ... and, [EW_rd], the reader's start stays *) intros t0 g0 [= <- _]. eauto.
  - (* IS_release, the open gate: a full chunk moves the frontier on by [c] ... *)
    destruct (Hrd t got E) as [-> Hgot]. intros n En. destruct g as [n0| |]; try easy; [eauto|].
    destruct (Nat.eqb_spec got c) as [->|]; [|easy]. eauto using mult_add.
  - (* ... and, [EW_pl], the pull is full, or it exhausted the source *)
    destruct (Hrd t got E) as [-> Hgot]. apply Forall_app. split; auto. constructor; [|constructor].
    cbn [fst snd]. repeat split; eauto; lia.
  - (* IS_process, [EW_tk]: afterwards the worker neither waits ... *) now destruct p'.
  - (* ... nor, [EW_rd], reads *) now destruct p'.
Qed.

Hypothesis dospawn_bound : forall n h, dospawn n h = true -> n + 2 <= maxt.
Hypothesis nextc_pos : forall n h x, nextc n h = Some x -> 0 < x.
Hypothesis maxt_pos : 1 <= maxt.
Hypothesis nextc_c : forall n h x, nextc n h = Some x -> x = c.

Lemma istep_EI s t : IGInv s -> EI s -> EI (istep s t).
Proof.
  intros G [Hcur Hct Hop Hw].
  destruct (istep_cases s t) as [new ph' cu Hn Hcu _|i|l1 w l2 ct g f sk w' E W].
  - constructor; cbn [icur iws ictr igate ifront]; auto.
    + destruct Hcu as [->|(n & h & Hcu)]; eauto.
    + apply Forall_app. split; auto. destruct Hn as [-> | ->]; repeat constructor; easy.
  - now constructor.
  - destruct (worker_view G E) as (Hrd & _ & Hopen). rewrite E in Hw.
    destruct (iwstep_EW W Hrd Hopen (I_front G) Hct Hop (Forall_elt _ _ _ Hw)) as (Hct' & Hop' & Hw').
    constructor; eauto using Forall_mid_swap.
Qed.

Lemma irun_EI s sched : IGInv s -> EI s -> EI (irun s sched).
Proof. apply irun_inv; auto. apply istep_EI. Qed.

Lemma iinit_EI : EI (iinit c).
Proof. constructor; cbn; auto; exists 0; reflexivity. Qed.

End ExactIter.

Section ExactIterRun.
Variable r : Runner.
Hypothesis r_wf : runner_wf r.
Variable x : N.
Hypothesis r_exact : r_chunk r = RExact x.

(** C11 over iterator sources: every pull of every worker in every reachable state *)
Theorem exact_pulls_iter srclen ordered stop panics sched w b k :
  In w (iws (imrunp r srclen ordered stop panics sched)) -> In (b, k) (ipulls w) ->
  icsize w = m_c0 r /\ (exists q, b = q * m_c0 r) /\ k <= m_c0 r /\ (k = m_c0 r \/ b + k = srclen).
Proof.
  intros Hw Hp. pose proof (runner_wf_pos r_wf) as r_pos.
  assert (E : EI srclen ordered (m_c0 r) (imrunp r srclen ordered stop panics sched)).
  { apply irun_EI with (maxt := m_maxt r); eauto using iinit_IGInv, iinit_EI with runner.
    eapply m_nextc_exact; eauto. }
  pose proof (Forall_In (EI_w E) Hw) as HW.
  pose proof (Forall_In (EW_pl HW) Hp) as (Hm & Hk & Hle).
  split; [apply (EW_cs HW)|]. auto.
Qed.

End ExactIterRun.
